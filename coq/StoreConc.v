(* Readers concurrent with any number of publishes, at the granularity of single record writes.

   A request reads the epoch record once (epoch E) and afterwards fetches node records one at a
   time, each "as of E" ([node_at]).  Meanwhile publishes commit: each commit writes its batch of
   records in some order, so a fetch may see the store before, after, or in the middle of any of the
   commits that follow E.  Theorems: every such fetch returns what the store frozen at E returns,
   or the error "both retained versions are newer" (a reader that has fallen two epochs behind);
   hence ANY computation from fetched records ([prog]: an arbitrary decision tree over the answers)
   returns exactly what it returns on the frozen store, or fails. *)
From Coq Require Import List Bool NArith Lia.
From Akd Require Import NodeLabel Tree Store StoreFacts.
Import ListNotations.
Open Scope N_scope.

(* the stores after zero or more whole commits that follow epoch E *)
Inductive committed (base : lookup) (E : N) : lookup -> Prop :=
| c_base : committed base E base
| c_commit g E' batch : committed base E g -> E <= E' ->
    (forall r, In r batch -> commit_shape g E' r = true) -> committed base E (overlay batch g).

(* ... and what a fetch can see: any part of the next commit's batch on top of one of those *)
Definition visible (base : lookup) (E : N) (g : lookup) : Prop :=
  exists g0 E' batch written, committed base E g0 /\ E <= E' /\
    (forall r, In r batch -> commit_shape g0 E' r = true) /\ incl written batch /\ g = overlay written g0.

Definition same_or_error (a b : sres) : Prop := a = b \/ a = SOther.

Lemma committed_agree base E g : committed base E g -> forall l, same_or_error (node_at g l E) (node_at base l E).
Proof.
  induction 1 as [|g E' batch Hc IH HE Hs]; intros l; [left; reflexivity|].
  destruct (node_at_overlay_le g E' batch E HE Hs l) as [H|[H _]]; [|right; exact H].
  rewrite H. apply IH.
Qed.

(* a partial commit is a commit of fewer records *)
Lemma visible_committed base E g : visible base E g -> committed base E g.
Proof.
  intros (g0 & E' & batch & written & Hc & HE & Hs & Hincl & ->).
  apply (c_commit base E g0 E' written Hc HE). intros r Hr. apply Hs, Hincl, Hr.
Qed.

Theorem visible_agree base E g : visible base E g -> forall l, same_or_error (node_at g l E) (node_at base l E).
Proof. intros H. apply committed_agree, visible_committed, H. Qed.

Lemma visible_base base E : visible base E base.
Proof.
  exists base, E, [], []. split; [apply c_base|]. split; [lia|]. split; [intros r []|]. split; [apply incl_refl | reflexivity].
Qed.

(* a request as a decision tree over the records it fetches; the error of a fetch aborts it *)
Inductive prog (A : Type) : Type :=
| Ret (a : A)
| Fail
| Fetch (l : nlabel) (k : option snode -> prog A).
Arguments Ret {A}. Arguments Fail {A}. Arguments Fetch {A}.

(* the i-th fetch sees the store [stores i] *)
Fixpoint exec {A} (p : prog A) (E : N) (stores : nat -> lookup) (i : nat) : option A :=
  match p with
  | Ret a => Some a
  | Fail => None
  | Fetch l k =>
    match node_at (stores i) l E with
    | SOk n => exec (k (Some n)) E stores (S i)
    | SNotFound => exec (k None) E stores (S i)
    | SOther => None
    end
  end.

Theorem concurrent_request_frozen_or_error {A} (p : prog A) base E stores :
  (forall i, visible base E (stores i)) ->
  forall i, exec p E stores i = exec p E (fun _ => base) i \/ exec p E stores i = None.
Proof.
  intros Hv. induction p as [a| |l k IH]; intros i; cbn [exec]; [left; reflexivity | left; reflexivity |].
  destruct (visible_agree base E (stores i) (Hv i) l) as [H|H]; rewrite H.
  - destruct (node_at base l E) as [n| |]; [apply IH | apply IH | left; reflexivity].
  - right. reflexivity.
Qed.

(* the tree walk of the model ([view], which C11/C13 use) under a store that changes between fetches:
   the position of a fetch in the walk selects the store it sees *)
Fixpoint view_v (fuel : nat) (at_ : list bool -> lookup) (E : N) (l : nlabel) : vres :=
  match fuel with
  | O => VErr
  | S f =>
    match node_at (at_ []) l E with
    | SNotFound => VTree None
    | SOther => VErr
    | SOk n =>
      if sn_leaf n then VTree (Some (Leaf l (sn_hash n) (sn_le n)))
      else
        let sub (d : bool) (o : option nlabel) : vres :=
          match o with Some c => view_v f (fun p => at_ (d :: p)) E c | None => VTree None end in
        match sub false (sn_left n), sub true (sn_right n) with
        | VTree a, VTree b => VTree (Some (Node l (sn_le n) (sn_mde n) a b))
        | _, _ => VErr
        end
    end
  end.

Theorem view_concurrent fuel base E : forall at_ l,
  (forall p, visible base E (at_ p)) ->
  view_v fuel at_ E l = view fuel base E l \/ view_v fuel at_ E l = VErr.
Proof.
  induction fuel as [|f IH]; intros at_ l Hv; [left; reflexivity|]. cbn [view_v view].
  destruct (visible_agree base E (at_ []) (Hv []) l) as [H|H]; rewrite H; [|right; reflexivity].
  destruct (node_at base l E) as [n| |]; [|left; reflexivity|left; reflexivity].
  destruct (sn_leaf n); [left; reflexivity|].
  assert (SL : forall d o, (match o with Some c => view_v f (fun p => at_ (d :: p)) E c | None => VTree None end) =
                           (match o with Some c => view f base E c | None => VTree None end) \/
                           (match o with Some c => view_v f (fun p => at_ (d :: p)) E c | None => VTree None end) = VErr).
  { intros d [c|]; [|left; reflexivity]. apply IH. intros p. apply Hv. }
  destruct (SL false (sn_left n)) as [-> | ->]; [|right; reflexivity].
  destruct (SL true (sn_right n)) as [-> | ->]; [left; reflexivity|].
  right. destruct (match sn_left n with Some c => view f base E c | None => VTree None end); reflexivity.
Qed.

Theorem root_hash_concurrent cfg base E g : visible base E g ->
  root_hash_at cfg g E = root_hash_at cfg base E \/ root_hash_at cfg g E = None.
Proof.
  intros Hv. unfold root_hash_at. destruct (visible_agree base E g Hv nl_root) as [H|H]; rewrite H; [left | right]; reflexivity.
Qed.
