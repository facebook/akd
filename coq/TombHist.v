(* C20, the history part: after the values of some states have been replaced by tombstones (any
   presentation map g that keeps user, epoch and version and changes a value only into the
   tombstone), in every reachable state:
   - with AllowMissingValues the history proof is accepted and reports the same versions and epochs,
     tombstoned values empty and the other values intact;
   - in Default mode it is accepted iff no requested entry was changed: if one was, verification
     fails (or the bad event of the configuration occurred).
   The tree is untouched: acceptance is HistEnd.key_history_complete_g at g = tomb_state; here is
   the rejection in Default mode. *)
From Coq Require Import List Bool NArith Lia.
From Akd Require HashingFacts.
From Akd Require Import NodeLabel NodeLabelFacts Hashing Tree Binding Directory Verify DirFacts DirRefine LookupComplete HistEnd.
Import ListNotations.
Open Scope N_scope.

Section Present.
  Variable g : vrec -> vrec.
  Hypothesis g_epoch : forall s, vr_epoch (g s) = vr_epoch s.

  Lemma sdesc_map h : sdesc h -> sdesc (map g h).
  Proof.
    induction h as [|a r IH]; [intros _; exact I|]. cbn [map sdesc]. intros [H1 H2]. split; [|apply IH; exact H2].
    intros x Hx. apply in_map_iff in Hx. destruct Hx as (y & <- & Hy). rewrite !g_epoch. apply H1. exact Hy.
  Qed.
End Present.

Section TombHist.
  Variable cfg : config.
  Variable ck : bytes.
  Variable vrf_label : bytes -> bool -> N -> option nlabel.
  Variable vrf_proof : bytes -> bool -> N -> option bytes.
  Variable vrf_check : bytes -> bytes -> bytes -> option bytes.
  Variable pk : bytes.
  Hypothesis Ce : canonical (c_empty_label cfg) = false.
  Hypothesis vrf_good : forall l f v nl, vrf_label l f v = Some nl -> WF nl /\ canonical nl = true /\ llen nl = 256.
  Hypothesis vrf_inj : forall l f v l' f' v' nl, vrf_label l f v = Some nl -> vrf_label l' f' v' = Some nl -> l = l' /\ f = f' /\ v = v'.
  Hypothesis vrf_complete : forall l f v nl pr, vrf_label l f v = Some nl -> vrf_proof l f v = Some pr ->
    vrf_check pk pr (label_input_hash cfg l f v) = Some (lval nl).

  Notation Inv3 := (Inv3 cfg ck vrf_label).
  Notation root st := (root_hash cfg true (d_tree st)).

  Section Reject.
    Variable g : vrec -> vrec.
    Hypothesis g_user : forall s, vr_user (g s) = vr_user s.
    Hypothesis g_epoch : forall s, vr_epoch (g s) = vr_epoch s.
    Hypothesis g_version : forall s, vr_version (g s) = vr_version s.
    Hypothesis g_value : forall s, vr_value (g s) = vr_value s \/ vr_value (g s) = GenConsts.TOMBSTONE.
    Notation present := (present g).

    Variable Bad : Prop.
    Hypothesis B : Binding cfg Bad.
    Hypothesis nonce_len : forall key lb ver value, Len64 (c_commitment_nonce cfg key lb ver value).

    (* the value check compares against the leaf of the stored value: a changed value fails it *)
    Lemma single_update_reject_g st l s u :
      Inv3 st -> In s (d_states st) -> vr_user s = l ->
      single_update_proof cfg ck vrf_label vrf_proof (d_tree st) l (g s) = Some u ->
      vr_value (g s) <> vr_value s -> Len64 (vr_value s) -> Len64 (vr_value (g s)) -> vr_epoch s < 2 ^ 64 ->
      verify_single_update cfg vrf_check pk (root st) l false u = None \/ Bad.
    Proof.
      intros I3 Hs Hu Hsp Hne L1 L2 He. pose proof I3 as [I2 _ _].
      destruct (single_update_proof_inv _ _ _ _ _ _ _ _ Hsp) as (el & ep & Eel & Eep & Ue & Uv & Uval & Uvrf & Uex & Un & _).
      rewrite g_version in *. rewrite g_epoch in Ue.
      destruct (stored_existence cfg ck vrf_label vrf_proof vrf_check pk vrf_good vrf_complete st s l _ el ep I2 Hs Hu eq_refl Eel Eep) as [_ Hhash].
      unfold verify_single_update. cbn [andb]. unfold verify_existence_with_val. rewrite Ue, Uv, Uval, Uvrf, Uex, Un, Hhash.
      destruct (bytes_eqb _ _) eqn:Eb; [|left; reflexivity].
      right. apply NodeLabelFacts.bytes_eqb_eq in Eb. unfold leaf_hash_with_value, fresh_value in Eb.
      apply (b_leaf_inj _ _ B) in Eb; try exact He; try apply (b_commit_D32 _ _ B).
      destruct Eb as [[Ec _]|]; [|assumption].
      apply (b_commit_inj _ _ B) in Ec; try assumption; try apply nonce_len.
      destruct Ec as [[Ev _]|]; [|assumption]. exfalso. apply Hne. exact Ev.
    Qed.

    Lemma updates_reject_g st l : Inv3 st -> forall data ups prev,
      (forall s, In s data -> In s (d_states st) /\ vr_user s = l) -> sdesc data ->
      (forall s, In s data -> Len64 (vr_value s) /\ Len64 (vr_value (g s)) /\ vr_epoch s < 2 ^ 64) ->
      (exists s, In s data /\ vr_value (g s) <> vr_value s) ->
      all_some (map (single_update_proof cfg ck vrf_label vrf_proof (d_tree st) l) (map g data)) = Some ups ->
      verify_updates cfg vrf_check pk (root st) l false prev ups = None \/ Bad.
    Proof.
      intros I3. induction data as [|s data IH]; intros ups prev Hin Hsd Hlen [x [Hx Hne]] H; [destruct Hx|].
      cbn [map] in H. destruct (all_some_cons _ _ _ _ H) as (u & us & Eu & Eus & ->). destruct (Hin s (or_introl eq_refl)) as [Hs Hu]. cbn [verify_updates].
      destruct (match prev with Some pe => pe <? up_epoch u | None => false end); [left; reflexivity|].
      destruct (HashingFacts.bytes_eq_dec (vr_value (g s)) (vr_value s)) as [Ev|Ev].
      - destruct (single_update_ok_g cfg ck vrf_label vrf_proof vrf_check pk vrf_good vrf_complete g g_epoch g_version g_value st l s u false I3 Hs Hu Eu (or_intror Ev)) as (V1 & V2 & V3). rewrite V1.
        cbn [sdesc] in Hsd. destruct Hsd as [_ Hsd'].
        destruct Hx as [->|Hx]; [congruence|].
        destruct (IH us (Some (up_epoch u)) (fun z Hz => Hin z (or_intror Hz)) Hsd' (fun z Hz => Hlen z (or_intror Hz)) (ex_intro _ x (conj Hx Hne)) Eus) as [->|]; [left; reflexivity | right; assumption].
      - destruct (Hlen s (or_introl eq_refl)) as (L1 & L2 & L3).
        destruct (single_update_reject_g st l s u I3 Hs Hu Eu Ev L1 L2 L3) as [->|]; [left; reflexivity | right; assumption].
    Qed.

    Theorem key_history_reject_g st l params p eh :
      Inv3 st -> key_history cfg ck vrf_label vrf_proof (present st) l params = DOk (p, eh) ->
      (forall s, In s (d_states st) -> Len64 (vr_value s) /\ Len64 (vr_value (g s))) -> d_epoch st < 2 ^ 64 ->
      (exists s, In s (hist_data st l params) /\ vr_value (g s) <> vr_value s) ->
      key_history_verify cfg vrf_check pk (snd eh) (fst eh) l p params false = None \/ Bad.
    Proof.
      intros I3 Hk Hlen He Hex.
      destruct (key_history_inv _ _ _ _ _ _ _ _ _ Hk)
        as (d0 & rest & sv & ev & past & future & ups & pvp & pls & fvp & fls & _ & _ & _ & _ & _ & _ & Eu & _ & _ & _ & _ & -> & ->).
      fold (hist_data (present st) l params) in Eu. rewrite (hist_data_present g g_user g_epoch) in Eu.
      destruct (hist_data_ok cfg ck vrf_label st l params I3) as (Hin_data & Hsd & _).
      pose proof (di_epochs vrf_label st (d2_inv cfg ck vrf_label st (i3_inv2 cfg ck vrf_label st I3))) as Iep.
      assert (Hl : forall s, In s (hist_data st l params) -> Len64 (vr_value s) /\ Len64 (vr_value (g s)) /\ vr_epoch s < 2 ^ 64).
      { intros s Hs. destruct (Hin_data s Hs) as [H1 _]. destruct (Hlen s H1) as [A C]. split; [exact A|]. split; [exact C|].
        exact (N.le_lt_trans _ _ _ (Iep s H1) He). }
      destruct (updates_reject_g st l I3 (hist_data st l params) ups None Hin_data Hsd Hl Hex Eu) as [Hn|]; [|right; assumption].
      left. unfold key_history_verify. cbn [epoch_hash fst snd hp_updates]. change (d_tree (present st)) with (d_tree st).
      destruct (verify_history_shape _ _ params) as [[past' future']|]; [|reflexivity]. rewrite Hn. reflexivity.
    Qed.
  End Reject.

  Lemma tomb_value_cases l c s : vr_value (tomb_state l c s) = vr_value s \/ vr_value (tomb_state l c s) = GenConsts.TOMBSTONE.
  Proof using Type. unfold tomb_state. destruct (_ && _); [right; reflexivity | left; reflexivity]. Qed.

  Variable reqs : list (list (bytes * bytes)).
  Let st := run_publishes cfg ck vrf_label dir_new reqs.
  Let I3 := inv3_reachable cfg ck vrf_label vrf_proof vrf_check pk Ce vrf_good vrf_inj vrf_complete reqs.

  (* C20: with AllowMissingValues the history of any label still verifies after tombstoning, reporting the
     same versions and epochs, tombstoned values empty and the others intact; in Default mode it
     verifies as long as no requested entry was tombstoned *)
  Theorem tombstoned_history_verifies l c l' params am p eh :
    key_history cfg ck vrf_label vrf_proof (d_tombstone st l c) l' params = DOk (p, eh) ->
    (am = true \/ forall s, In s (hist_data st l' params) -> vr_value (tomb_state l c s) = vr_value s) ->
    key_history_verify cfg vrf_check pk (snd eh) (fst eh) l' p params am =
    Some (map entry (map (tomb_state l c) (hist_data st l' params))).
  Proof.
    apply (key_history_complete_g cfg ck vrf_label vrf_proof vrf_check pk Ce vrf_good vrf_inj vrf_complete
             (tomb_state l c) (tomb_user l c) (tomb_epoch l c) (tomb_version l c) (tomb_value_cases l c) st l' params am p eh I3).
  Qed.

  (* ... and a verifier that does not allow missing values rejects every history that includes an
     entry whose value was replaced *)
  Theorem tombstoned_history_rejected (Bad : Prop) (B : Binding cfg Bad)
          (nonce_len : forall key lb ver value, Len64 (c_commitment_nonce cfg key lb ver value)) l c l' params p eh :
    key_history cfg ck vrf_label vrf_proof (d_tombstone st l c) l' params = DOk (p, eh) ->
    (forall s, In s (d_states st) -> Len64 (vr_value s)) -> d_epoch st < 2 ^ 64 ->
    (exists s, In s (hist_data st l' params) /\ vr_value (tomb_state l c s) <> vr_value s) ->
    key_history_verify cfg vrf_check pk (snd eh) (fst eh) l' p params false = None \/ Bad.
  Proof.
    intros Hk Hlen He Hex.
    apply (key_history_reject_g (tomb_state l c) (tomb_user l c) (tomb_epoch l c) (tomb_version l c) (tomb_value_cases l c) Bad B nonce_len st l' params p eh I3 Hk); try assumption.
    intros s Hs. split; [apply Hlen; exact Hs|]. destruct (tomb_value_cases l c s) as [-> | ->]; [apply Hlen; exact Hs|].
    unfold Len64. cbn. lia.
  Qed.
End TombHist.
