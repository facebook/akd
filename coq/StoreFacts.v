(* C11 / C13 at the store level: the records of a commit, written in any subset, do not change what
   any node lookup "as of the previous epoch" returns; version selection never returns a node
   version newer than the requested epoch. *)
From Coq Require Import List Bool Arith NArith Lia.
From Akd Require Import Bits NodeLabel NodeLabelFacts Tree Store.
Import ListNotations.
Open Scope N_scope.

Lemma opt_label_eqb_eq a b : opt_label_eqb a b = true -> a = b.
Proof. destruct a, b; simpl; intros H; try discriminate; auto. apply nl_eqb_eq in H. congruence. Qed.

Lemma snode_eqb_eq a b : snode_eqb a b = true -> a = b.
Proof.
  unfold snode_eqb. rewrite !andb_true_iff. intros [[[[[H1 H2] H3] H4] H5] H6].
  apply N.eqb_eq in H1, H2. apply eqb_prop in H3. apply opt_label_eqb_eq in H4, H5. apply bytes_eqb_eq in H6.
  destruct a, b; simpl in *; congruence.
Qed.

Lemma opt_snode_eqb_eq a b : opt_snode_eqb a b = true -> a = b.
Proof. destruct a, b; simpl; intros H; try discriminate; auto. apply snode_eqb_eq in H. congruence. Qed.

Lemma find_rec_some rs l r : find_rec rs l = Some r -> In r rs /\ sr_label r = l.
Proof.
  induction rs as [|x rs IH]; simpl; [discriminate|]. destruct (nl_eqb (sr_label x) l) eqn:E.
  - intros [= <-]. apply nl_eqb_eq in E. auto.
  - intros H. destruct (IH H). auto.
Qed.

(* C13 / fix F5: version selection never hands out a node version newer than the requested epoch;
   when both retained versions are newer it reports an error instead *)
Theorem determine_sound r E n : determine r E = SOk n ->
  sn_le n <= E /\ (n = sr_latest r \/ (sr_prev r = Some n /\ E < sn_le (sr_latest r))).
Proof.
  unfold determine. destruct (N.ltb_spec E (sn_le (sr_latest r))) as [H|H].
  - destruct (sr_prev r) as [p|]; [|discriminate]. destruct (N.ltb_spec E (sn_le p)); [discriminate|].
    intros [= <-]. split; [lia|]. right. auto.
  - intros [= <-]. split; [lia|]. now left.
Qed.

Theorem determine_lagging r E p : sr_prev r = Some p -> E < sn_le p -> E < sn_le (sr_latest r) -> determine r E = SOther.
Proof.
  intros Hp H1 H2. unfold determine. destruct (N.ltb_spec E (sn_le (sr_latest r))); [|lia]. rewrite Hp.
  destruct (N.ltb_spec E (sn_le p)); [reflexivity|lia].
Qed.

Lemma commit_shape_inv base E r : commit_shape base E r = true ->
  match base (sr_label r) with
  | None => E < sn_le (sr_latest r) /\ sr_prev r = None
  | Some old =>
    (E < sn_le (sr_latest r) /\ sr_prev r = Some (sr_latest old) /\ sn_le (sr_latest old) <= E) \/
    (sn_le (sr_latest r) <= E /\ sr_latest r = sr_latest old /\ sr_prev r = sr_prev old)
  end.
Proof.
  unfold commit_shape. destruct (base (sr_label r)) as [old|].
  - destruct (N.ltb_spec E (sn_le (sr_latest r))) as [H|H]; rewrite andb_true_iff; intros [H1 H2]; [left | right].
    + apply opt_snode_eqb_eq in H1. apply N.leb_le in H2. auto.
    + apply snode_eqb_eq in H1. apply opt_snode_eqb_eq in H2. auto.
  - rewrite andb_true_iff. intros [H1 H2]. apply N.ltb_lt in H1. destruct (sr_prev r); [discriminate | auto].
Qed.

Lemma determine_commit base E' r E : commit_shape base E' r = true -> E <= E' ->
  determine r E = match base (sr_label r) with Some old => determine old E | None => SNotFound end \/
  (determine r E = SOther /\ E < E').
Proof.
  intros Hs HE. apply commit_shape_inv in Hs. unfold determine at 1 3.
  destruct (base (sr_label r)) as [old|]; [destruct Hs as [(H1 & -> & H3)|(H1 & H2 & H3)]|destruct Hs as [H1 ->]].
  - assert (L : E <? sn_le (sr_latest r) = true) by (apply N.ltb_lt; lia). rewrite L. unfold determine.
    destruct (N.ltb_spec E (sn_le (sr_latest old))); [right; split; [reflexivity | lia] | left; reflexivity].
  - left. unfold determine. now rewrite H2, H3.
  - assert (L : E <? sn_le (sr_latest r) = true) by (apply N.ltb_lt; lia). rewrite L. left. reflexivity.
Qed.

Lemma node_at_overlay_le base E' written E :
  E <= E' -> (forall r, In r written -> commit_shape base E' r = true) ->
  forall l, node_at (overlay written base) l E = node_at base l E \/ (node_at (overlay written base) l E = SOther /\ E < E').
Proof.
  intros HE Hshape l. unfold node_at, overlay. destruct (find_rec written l) as [r|] eqn:F; [|left; reflexivity].
  destruct (find_rec_some _ _ _ F) as [Hin <-]. exact (determine_commit base E' r E (Hshape r Hin) HE).
Qed.

(* C11: records of the commit of epoch E+1 written on top of the store - any subset of them - leave
   every node lookup as of epoch E unchanged *)
Theorem node_at_overlay base E written :
  (forall r, In r written -> commit_shape base E r = true) ->
  forall l, node_at (overlay written base) l E = node_at base l E.
Proof.
  intros Hshape l. destruct (node_at_overlay_le base E written E (N.le_refl E) Hshape l) as [H|[_ H]]; [exact H|].
  now apply N.lt_irrefl in H.
Qed.

Lemma view_ext fuel g1 g2 E : (forall l, node_at g1 l E = node_at g2 l E) -> forall l, view fuel g1 E l = view fuel g2 E l.
Proof.
  intros H. induction fuel as [|f IH]; intros l; simpl; [reflexivity|]. rewrite H.
  destruct (node_at g2 l E) as [n| |]; try reflexivity. destruct (sn_leaf n); [reflexivity|].
  destruct (sn_left n) as [a|], (sn_right n) as [b|]; rewrite ?IH; reflexivity.
Qed.

(* ... hence the whole tree a reader reconstructs as of epoch E, and the root hash it reports, are
   those of the store before the commit started *)
Theorem view_overlay fuel base E written l :
  (forall r, In r written -> commit_shape base E r = true) ->
  view fuel (overlay written base) E l = view fuel base E l.
Proof. intros H. apply view_ext. now apply node_at_overlay. Qed.

Theorem root_hash_overlay cfg base E written :
  (forall r, In r written -> commit_shape base E r = true) ->
  root_hash_at cfg (overlay written base) E = root_hash_at cfg base E.
Proof. intros H. unfold root_hash_at. now rewrite node_at_overlay. Qed.

(* subsets: whatever part of the batch has reached storage *)
Corollary view_partial_commit fuel base E batch written l :
  (forall r, In r batch -> commit_shape base E r = true) -> (forall r, In r written -> In r batch) ->
  view fuel (overlay written base) E l = view fuel base E l.
Proof. intros H Hs. apply view_overlay. intros r Hr. apply H. now apply Hs. Qed.
