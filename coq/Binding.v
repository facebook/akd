(* All facts about a configuration's hash formulas that the security theorems use, bundled:
   each holds up to the explicit bad event [Bad] (HashingBinding.v proves the bundle for both real
   configurations with Bad = a collision of H, resp. a collision or a zero-digest preimage). *)
From Coq Require Import List Bool Arith NArith Lia.
From Akd Require Import Bits NodeLabel NodeLabelFacts Hashing Tree TreeFacts.
Import ListNotations.
Open Scope N_scope.

Definition Len64 (b : bytes) : Prop := N.of_nat (length b) < 2 ^ 64.

Record Binding (cfg : config) (Bad : Prop) : Prop := {
  b_parent_inj : forall a la b lb a' la' b' lb',
    D32 a -> D32 a' -> D32 b -> D32 b' -> LW la -> LW la' -> LW lb -> LW lb' ->
    c_parent_hash cfg a (lvalue cfg la) b (lvalue cfg lb) =
    c_parent_hash cfg a' (lvalue cfg la') b' (lvalue cfg lb') ->
    (a = a' /\ lvalue cfg la = lvalue cfg la' /\ b = b' /\ lvalue cfg lb = lvalue cfg lb') \/ Bad;
  b_lvalue_inj : forall l l', LW l -> LW l' -> lvalue cfg l = lvalue cfg l' -> l = l' \/ Bad;
  b_leaf_not_parent : forall c e a la b lb,
    D32 c -> D32 a -> D32 b -> LW la -> LW lb ->
    c_leaf_hash cfg c e = c_parent_hash cfg a (lvalue cfg la) b (lvalue cfg lb) -> Bad;
  b_root_inj : forall v v', D32 v -> D32 v' ->
    c_root_hash_from_val cfg v = c_root_hash_from_val cfg v' -> v = v' \/ Bad;
  b_empty_root_not_parent : forall a la b lb, D32 a -> D32 b -> LW la -> LW lb ->
    c_empty_root_value cfg = c_parent_hash cfg a (lvalue cfg la) b (lvalue cfg lb) -> Bad;
  b_empty_node_not_parent : forall a la b lb, D32 a -> D32 b -> LW la -> LW lb ->
    c_empty_node_hash cfg = c_parent_hash cfg a (lvalue cfg la) b (lvalue cfg lb) -> Bad;
  b_leaf_not_empty_root : forall c e, D32 c -> c_leaf_hash cfg c e = c_empty_root_value cfg -> Bad;
  b_parent_D32 : forall a la b lb, D32 (c_parent_hash cfg a la b lb);
  b_leaf_D32 : forall c e, D32 (c_leaf_hash cfg c e);
  b_empty_root_D32 : D32 (c_empty_root_value cfg);
  b_empty_node_D32 : D32 (c_empty_node_hash cfg);
  b_empty_label_LW : LW (c_empty_label cfg);
  b_empty_label_not_root : c_empty_label cfg <> nl_root;
  b_empty_label_not_canonical : canonical (c_empty_label cfg) = false;
  b_leaf_inj : forall c e c' e', D32 c -> D32 c' -> e < 2 ^ 64 -> e' < 2 ^ 64 ->
    c_leaf_hash cfg c e = c_leaf_hash cfg c' e' -> (c = c' /\ e = e') \/ Bad;
  b_commit_inj : forall v n v' n', Len64 v -> Len64 n -> Len64 v' -> Len64 n' ->
    commit cfg v n = commit cfg v' n' -> (v = v' /\ n = n') \/ Bad;
  b_commit_D32 : forall v n, D32 (commit cfg v n);
}.

Section WithBinding.
  Variable cfg : config.
  Variable Bad : Prop.
  Hypothesis B : Binding cfg Bad.

  Theorem mem_sound_b t mp :
    tree_ok t -> tlabel t = nl_root -> is_leaf t = false -> mp_ok mp ->
    verify_membership cfg (root_hash cfg true t) mp = true ->
    Origin cfg (mp_label mp) (mp_hash_val mp) t \/ Bad.
  Proof.
    destruct B. apply (mem_sound cfg Bad); assumption.
  Qed.

  Theorem nonmem_sound_b t p :
    tree_ok t -> wf_root t = true -> nmp_ok p -> WF (np_label p) ->
    verify_nonmembership cfg (root_hash cfg true t) p = true ->
    ~ In (np_label p) (map lf_label (leaves t)) \/ Bad.
  Proof.
    destruct B. apply (nonmem_sound cfg Bad); assumption.
  Qed.
End WithBinding.
