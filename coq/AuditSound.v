(* C09, the semantic conclusion: if the auditor accepts a single-epoch proof against the root hashes
   of two well-formed trees, every leaf of the earlier tree (label, value AND epoch) is a leaf of the
   later one, and every other leaf of the later tree is one of the proof's inserted nodes stamped
   with the end epoch - or a hash collision (the bad event of the configuration) has been exhibited.
   For every proof an adversary may send (canonical labels; see DESIGN.md for that premise). *)
From Coq Require Import List Bool Arith NArith Lia Permutation.
From Akd Require Import Bits NodeLabel NodeLabelFacts ElemSet ElemSetFacts Hashing Tree TreeFacts Binding
     Spec SpecFacts Insert InsertRefine AuditRebuild Directory Verify VerifyFacts.
Import ListNotations.
Open Scope N_scope.

Lemma canon_id l : WF l -> canonical l = true -> canon l = l.
Proof.
  intros W C. unfold canon. destruct (get_prefix_good l (llen l) W (N.le_refl _)) as (W' & Hb & C').
  apply bits_of_inj; auto. rewrite Hb, <- (length_bits_of l W). apply firstn_all.
Qed.

(* what the auditor's verify_prefix_free (fix F2) establishes about the labels of a node list; the
   leaf labels of a well-formed trie satisfy it as well (AuditComplete.wf_sub_labels_ok) *)
Definition labels_ok (ls : list nlabel) : Prop :=
  (forall l, In l ls -> WF l /\ canonical l = true) /\ NoDup ls /\
  (forall x y, In x ls -> In y ls -> prefixb (bits_of x) (bits_of y) = true -> x = y).

Lemma labels_ok_perm ls ls' : Permutation ls ls' -> labels_ok ls' -> labels_ok ls.
Proof.
  intros P (H1 & H2 & H3). split; [|split].
  - intros l Hl. apply H1. eapply Permutation_in; eassumption.
  - eapply Permutation_NoDup; [apply Permutation_sym; exact P | exact H2].
  - intros x y Hx Hy. apply H3; eapply Permutation_in; eassumption.
Qed.

Lemma nodes_ok_labels L : nodes_ok L <-> labels_ok (map e_label L).
Proof.
  split; intros (H1 & H2 & H3); (split; [|split; [exact H2|]]).
  - intros l Hl. apply in_map_iff in Hl. destruct Hl as (x & <- & Hx). apply H1. exact Hx.
  - intros l m Hl Hm. apply in_map_iff in Hl, Hm. destruct Hl as (x & <- & Hx), Hm as (y & <- & Hy). apply H3; assumption.
  - intros x Hx. apply H1. apply in_map. exact Hx.
  - intros x y Hx Hy. apply H3; apply in_map; assumption.
Qed.

Lemma nodes_ok_same_labels L L' : map e_label L = map e_label L' -> nodes_ok L -> nodes_ok L'.
Proof. intros E H. apply nodes_ok_labels. rewrite <- E. apply nodes_ok_labels. exact H. Qed.

Definition apart (x y : nlabel) : Prop :=
  prefixb (bits_of x) (bits_of y) = false /\ prefixb (bits_of y) (bits_of x) = false.

Lemma labels_ok_cons x r :
  labels_ok (x :: r) <-> (WF x /\ canonical x = true) /\ (forall y, In y r -> apart x y) /\ labels_ok r.
Proof.
  split.
  - intros (H1 & H2 & H3). inversion H2 as [|? ? Hn Hd]; subst. split; [apply H1; left; reflexivity|]. split.
    + intros y Hy. split; [destruct (prefixb (bits_of x) (bits_of y)) eqn:E | destruct (prefixb (bits_of y) (bits_of x)) eqn:E];
        try reflexivity; exfalso; apply Hn.
      * rewrite (H3 x y (or_introl eq_refl) (or_intror Hy) E). exact Hy.
      * rewrite <- (H3 y x (or_intror Hy) (or_introl eq_refl) E). exact Hy.
    + split; [intros l Hl; apply H1; right; exact Hl|]. split; [exact Hd|]. intros a b Ha Hb. apply H3; right; assumption.
  - intros (Hx & Hr & H1 & H2 & H3). split; [|split].
    + intros l [<-|Hl]; [exact Hx | apply H1; exact Hl].
    + constructor; [|exact H2]. intros Hin. destruct (Hr x Hin) as [A _]. rewrite prefixb_refl in A. discriminate.
    + intros a b [<-|Ha] [<-|Hb] Hp; [reflexivity | destruct (Hr b Hb); congruence | destruct (Hr a Ha); congruence | apply H3; assumption].
Qed.

Lemma pairwise_free_labels : forall ls, (forall l, In l ls -> WF l /\ canonical l = true) ->
  (pairwise_free (map canon ls) = true <-> labels_ok ls).
Proof.
  induction ls as [|x r IH]; intros Hok.
  - split; intros _; [|reflexivity]. split; [intros l []|]. split; [constructor | intros x y []].
  - destruct (Hok x (or_introl eq_refl)) as [Wx Cx]. assert (Hokr : forall l, In l r -> WF l /\ canonical l = true) by (intros l Hl; apply Hok; right; exact Hl).
    cbn [map pairwise_free]. rewrite andb_true_iff, labels_ok_cons, (IH Hokr), forallb_forall.
    assert (E : (forall m, In m (map canon r) -> negb (is_prefix_of (canon x) m) && negb (is_prefix_of m (canon x)) = true) <->
                (forall y, In y r -> apart x y)).
    { split.
      - intros H y Hy. destruct (Hokr y Hy) as [Wy Cy]. specialize (H (canon y) (in_map canon r y Hy)).
        rewrite !canon_id, !is_prefix_of_spec, andb_true_iff, !negb_true_iff in H by assumption. exact H.
      - intros H m Hm. apply in_map_iff in Hm. destruct Hm as (y & <- & Hy). destruct (Hokr y Hy) as [Wy Cy].
        rewrite !canon_id, !is_prefix_of_spec, andb_true_iff, !negb_true_iff by assumption. exact (H y Hy). }
    rewrite E. tauto.
Qed.

Lemma prefix_free_labels_iff L : elabs_ok L -> (prefix_free_labels L = true <-> nodes_ok L).
Proof.
  intros Hok. assert (Hok' : forall l, In l (map e_label L) -> WF l /\ canonical l = true).
  { intros l Hl. apply in_map_iff in Hl. destruct Hl as (x & <- & Hx). apply Hok. exact Hx. }
  unfold prefix_free_labels. rewrite <- (map_map e_label canon), andb_true_iff, (pairwise_free_labels _ Hok'), nodes_ok_labels.
  split; [tauto|]. intros H. split; [|exact H]. apply forallb_forall. intros x Hx.
  destruct (WF_parts _ (proj1 (Hok x Hx))) as (_ & Hl & _). apply N.leb_le. exact Hl.
Qed.

Lemma nodes_ok_app_l A B : nodes_ok (A ++ B) -> nodes_ok A.
Proof.
  intros (Hok & Nd & Pf). split; [|split].
  - intros x Hx. apply Hok. apply in_or_app. left. exact Hx.
  - rewrite map_app in Nd. apply NoDup_app_l in Nd. exact Nd.
  - intros x y Hx Hy. apply Pf; apply in_or_app; left; assumption.
Qed.

Lemma empty_label_alone L x : nodes_ok L -> In x L -> bits_of (e_label x) = [] -> L = [x].
Proof.
  intros (Hok & Nd & Pf) Hx Ex.
  assert (Hall : forall y, In y L -> e_label y = e_label x).
  { intros y Hy. symmetry. apply Pf; try assumption. rewrite Ex. reflexivity. }
  destruct L as [|a [|b r]]; [destruct Hx| |].
  - destruct Hx as [->|[]]. reflexivity.
  - exfalso. cbn [map] in Nd. inversion Nd as [|? ? Hn _]; subst. apply Hn. left.
    rewrite (Hall a (or_introl eq_refl)), (Hall b (or_intror (or_introl eq_refl))). reflexivity.
Qed.

Lemma all_or_some_empty (L : list elem) :
  (forall x, In x L -> bits_of (e_label x) <> []) \/ (exists x, In x L /\ bits_of (e_label x) = []).
Proof.
  induction L as [|a r IH]; [left; intros x []|].
  destruct (bits_of (e_label a)) as [|b0 bs] eqn:E; [right; exists a; split; [left; reflexivity | exact E]|].
  destruct IH as [IH|(x & Hx & Ex)]; [left | right; exists x; split; [right; exact Hx | exact Ex]].
  intros x [<-|Hx]; [rewrite E; discriminate | apply IH; exact Hx].
Qed.

Section Sound.
  Variable cfg : config.
  Variable Bad : Prop.
  Hypothesis B : Binding cfg Bad.

  (* the bundle supplies the size facts that the lemmas of TreeFacts ask for one by one *)
  Lemma nv_D32 we t : tree_ok t -> D32 (node_value cfg we t).
  Proof. exact (node_value_D32_in cfg (b_parent_D32 _ _ B) (b_leaf_D32 _ _ B) (b_empty_root_D32 _ _ B) we t). Qed.
  Lemma slotv_D32 we o : otree_ok o -> D32 (slot_value_in cfg we o).
  Proof. exact (slot_value_D32_in cfg (b_parent_D32 _ _ B) (b_leaf_D32 _ _ B) (b_empty_root_D32 _ _ B) (b_empty_node_D32 _ _ B) we o). Qed.
  Lemma slotl_LW o : otree_ok o -> LW (slot_label cfg o).
  Proof. exact (slot_label_LW cfg (b_empty_label_LW _ _ B) o). Qed.

  Lemma parent_inj_labels a la b lb a' la' b' lb' :
    D32 a -> D32 a' -> D32 b -> D32 b' -> LW la -> LW la' -> LW lb -> LW lb' ->
    c_parent_hash cfg a (lvalue cfg la) b (lvalue cfg lb) = c_parent_hash cfg a' (lvalue cfg la') b' (lvalue cfg lb') ->
    (a = a' /\ la = la' /\ b = b' /\ lb = lb') \/ Bad.
  Proof.
    intros Da Da' Db Db' La La' Lb Lb' E.
    destruct (b_parent_inj _ _ B _ _ _ _ _ _ _ _ Da Da' Db Db' La La' Lb Lb' E) as [(V1 & L1 & V2 & L2)|]; [|right; assumption].
    destruct (b_lvalue_inj _ _ B _ _ La La' L1) as [E1|]; [|right; assumption].
    destruct (b_lvalue_inj _ _ B _ _ Lb Lb' L2) as [E2|]; [|right; assumption].
    left. auto.
  Qed.

  Lemma node_hash_inj we we' l le mde a b l' le' mde' a' b' :
    tree_ok (Node l le mde a b) -> tree_ok (Node l' le' mde' a' b') ->
    (a <> None \/ b <> None) -> (a' <> None \/ b' <> None) ->
    hashval cfg we (Node l le mde a b) = hashval cfg we' (Node l' le' mde' a' b') ->
    (slot_value_in cfg we a = slot_value_in cfg we' a' /\ slot_label cfg a = slot_label cfg a' /\
     slot_value_in cfg we b = slot_value_in cfg we' b' /\ slot_label cfg b = slot_label cfg b') \/ Bad.
  Proof.
    intros (_ & Oa & Ob) (_ & Oa' & Ob') N N' E. rewrite (hashval_node_in cfg we _ _ _ _ _ N), (hashval_node_in cfg we' _ _ _ _ _ N') in E.
    apply parent_inj_labels in E; auto using slotv_D32, slotl_LW.
  Qed.

  Lemma leaf_not_node we c ep l le mde a b :
    D32 c -> tree_ok (Node l le mde a b) -> (a <> None \/ b <> None) ->
    c_leaf_hash cfg c ep = hashval cfg we (Node l le mde a b) -> Bad.
  Proof.
    intros Dc (_ & Oa & Ob) N E. rewrite (hashval_node_in cfg we _ _ _ _ _ N) in E.
    eapply (b_leaf_not_parent _ _ B); [exact Dc | | | | | exact E]; auto using slotv_D32, slotl_LW.
  Qed.

  Lemma empty_root_not_node we l le mde a b :
    tree_ok (Node l le mde a b) -> (a <> None \/ b <> None) ->
    c_empty_root_value cfg = hashval cfg we (Node l le mde a b) -> Bad.
  Proof.
    intros (_ & Oa & Ob) N E. rewrite (hashval_node_in cfg we _ _ _ _ _ N) in E.
    eapply (b_empty_root_not_parent _ _ B); [| | | | exact E]; auto using slotv_D32, slotl_LW.
  Qed.

  (* R: an auditor-mode tree (leaf values are the hashes the proof claims); T: a directory tree *)
  Fixpoint Abs (R T : tree) : Prop :=
    match R with
    | Leaf l v _ => tlabel T = l /\ node_value cfg true T = v
    | Node l _ _ (Some a) (Some b) =>
      match T with
      | Node l' _ _ (Some a') (Some b') => l = l' /\ Abs a a' /\ Abs b b'
      | _ => False
      end
    | _ => False
    end.

  Lemma value_abs : forall R T,
    wf_sub R = true -> tree_ok R -> wf_sub T = true -> tree_ok T -> tlabel R = tlabel T ->
    node_value cfg false R = node_value cfg true T -> Abs R T \/ Bad.
  Proof using B.
    intros R T WR. revert T. revert R WR. refine (wf_sub_ind _ _ _).
    - intros l v e _ _ T _ _ _ EL EV. left. split; symmetry; assumption.
    - intros l le mde a b _ _ _ _ _ _ IHa IHb T OR WT OT EL EV. destruct T as [l' v' e'|l' le' mde' a' b'].
      + right. symmetry in EV. eapply (leaf_not_node false); [apply OT | exact OR | left; discriminate | exact EV].
      + destruct (wf_sub_node _ _ _ _ _ WT) as (a1 & b1 & -> & -> & _ & _ & _ & _ & Wa1 & Wb1).
        destruct (node_hash_inj false true _ _ _ _ _ _ _ _ _ _ OR OT ltac:(left; discriminate) ltac:(left; discriminate) EV)
          as [(V1 & L1 & V2 & L2)|]; [|right; assumption].
        destruct OR as (_ & Oa & Ob), OT as (_ & Oa1 & Ob1).
        destruct (IHa a1 Oa Wa1 Oa1 L1 V1) as [Aa|]; [|right; assumption].
        destruct (IHb b1 Ob Wb1 Ob1 L2 V2) as [Ab|]; [|right; assumption].
        left. cbn [Abs]. cbn [tlabel] in EL. auto.
  Qed.

  Definition names (T : tree) (x : elem) (A : tree) : Prop :=
    Sub A T /\ wf_sub A = true /\ tlabel A = e_label x /\ node_value cfg true A = e_value x.

  Definition covers (T : tree) (xs : list elem) (ys : list leaf) : Prop :=
    (forall x, In x xs -> exists A, names T x A) /\
    (forall y, In y ys -> exists x A, In x xs /\ names T x A /\ In y (leaves A)).
  Definition frontier (xs : list elem) (T : tree) : Prop := covers T xs (leaves T).
  Definition elem_of (r : leaf) : elem := El (lf_label r) (lf_value r).

  Lemma covers_up T' T xs ys : Sub T' T -> covers T' xs ys -> covers T xs ys.
  Proof.
    intros S [F1 F2]. split.
    - intros x Hx. destruct (F1 x Hx) as [A (SA & HA)]. exists A. split; [exact (Sub_trans _ _ _ SA S) | exact HA].
    - intros y Hy. destruct (F2 y Hy) as (x & A & Hx & (SA & HA) & HyA). exists x, A.
      split; [exact Hx|]. split; [split; [exact (Sub_trans _ _ _ SA S) | exact HA] | exact HyA].
  Qed.

  Lemma covers_app T xa ya xb yb : covers T xa ya -> covers T xb yb -> covers T (xa ++ xb) (ya ++ yb).
  Proof.
    intros [A1 A2] [B1 B2]. split.
    - intros x Hx. apply in_app_or in Hx. destruct Hx; auto.
    - intros y Hy. apply in_app_or in Hy.
      destruct Hy as [Hy|Hy]; [destruct (A2 y Hy) as (x & A & Hx & H) | destruct (B2 y Hy) as (x & A & Hx & H)];
        exists x, A; (split; [apply in_or_app; auto | exact H]).
  Qed.

  Lemma frontier_perm xs xs' T : Permutation xs xs' -> frontier xs T -> frontier xs' T.
  Proof.
    intros P [F1 F2]. split.
    - intros x Hx. apply F1. apply (Permutation_in _ (Permutation_sym P)). exact Hx.
    - intros y Hy. destruct (F2 y Hy) as (x & A & Hx & H). exists x, A. split; [apply (Permutation_in _ P); exact Hx | exact H].
  Qed.

  Lemma abs_frontier : forall R T, Abs R T -> wf_sub T = true -> frontier (map elem_of (leaves R)) T.
  Proof.
    induction R as [l v e|l le mde a b IHa IHb] using tree_ind'; intros T HA WT.
    - destruct HA as [E1 E2].
      assert (N : names T (El l v) T) by (split; [apply Sub_refl | split; [exact WT | split; assumption]]).
      split; [intros x [<-|[]]; exists T; exact N | intros y Hy; exists (El l v), T; split; [left; reflexivity | split; assumption]].
    - destruct a as [a0|]; [|destruct HA]. destruct b as [b0|]; [|destruct HA].
      destruct T as [|l' le' mde' [a1|] [b1|]]; try (cbn [Abs] in HA; destruct HA; fail).
      cbn [Abs] in HA. destruct HA as (_ & Aa & Ab).
      destruct (wf_sub_node _ _ _ _ _ WT) as (a2 & b2 & [= <-] & [= <-] & _ & _ & _ & _ & Wa & Wb).
      unfold frontier. cbn [leaves]. rewrite map_app.
      apply covers_app; [apply (covers_up a1); [apply Sub_l, Sub_refl | apply (IHa a0 eq_refl); assumption]
                        | apply (covers_up b1); [apply Sub_r, Sub_refl | apply (IHb b0 eq_refl); assumption]].
  Qed.

  Definition epochs_ok (t : tree) : Prop := forall y, In y (leaves t) -> lf_epoch y < 2 ^ 64.

  Lemma sub_epochs_ok A T : Sub A T -> epochs_ok T -> epochs_ok A.
  Proof. intros S E y Hy. apply E. apply (Sub_leaves_in A T S). exact Hy. Qed.

  Lemma epochs_ok_node l le mde a b : epochs_ok (Node l le mde (Some a) (Some b)) -> epochs_ok a /\ epochs_ok b.
  Proof. intros E. split; intros y Hy; apply E; cbn [leaves]; apply in_or_app; auto. Qed.

  Lemma value_eq_leaves : forall A A',
    wf_sub A = true -> tree_ok A -> epochs_ok A -> wf_sub A' = true -> tree_ok A' -> epochs_ok A' ->
    tlabel A = tlabel A' -> node_value cfg true A = node_value cfg true A' -> leaves A = leaves A' \/ Bad.
  Proof using B.
    intros A A' WA. revert A'. revert A WA. refine (wf_sub_ind _ _ _).
    - intros l v e _ _ A' OA EA WA' OA' EA' EL EV. destruct A' as [l' v' e'|l' le' mde' a' b'].
      + cbn [node_value] in EV.
        apply (b_leaf_inj _ _ B) in EV; [| apply OA | apply OA' | apply (EA (LF l v e)); left; reflexivity | apply (EA' (LF l' v' e')); left; reflexivity].
        destruct EV as [[-> ->]|]; [|right; assumption]. cbn [tlabel] in EL. subst l'. left. reflexivity.
      + right. destruct (wf_sub_node _ _ _ _ _ WA') as (a1 & b1 & -> & -> & _).
        eapply (leaf_not_node true); [apply OA | exact OA' | left; discriminate | exact EV].
    - intros l le mde a b _ _ _ _ _ _ IHa IHb A' OA EA WA' OA' EA' EL EV. destruct A' as [l' v' e'|l' le' mde' a' b'].
      + right. symmetry in EV. eapply (leaf_not_node true); [apply OA' | exact OA | left; discriminate | exact EV].
      + destruct (wf_sub_node _ _ _ _ _ WA') as (a1 & b1 & -> & -> & _ & _ & _ & _ & Wa1 & Wb1).
        destruct (node_hash_inj true true _ _ _ _ _ _ _ _ _ _ OA OA' ltac:(left; discriminate) ltac:(left; discriminate) EV)
          as [(V1 & L1 & V2 & L2)|]; [|right; assumption].
        destruct OA as (_ & Oa & Ob), OA' as (_ & Oa1 & Ob1).
        destruct (epochs_ok_node _ _ _ _ _ EA) as [Ea Eb], (epochs_ok_node _ _ _ _ _ EA') as [Ea1 Eb1].
        destruct (IHa a1 Oa Ea Wa1 Oa1 Ea1 L1 V1) as [Aa|]; [|right; assumption].
        destruct (IHb b1 Ob Eb Wb1 Ob1 Eb1 L2 V2) as [Ab|]; [|right; assumption].
        left. cbn [leaves]. rewrite Aa, Ab. reflexivity.
  Qed.

End Sound.

Section Step.
  Variable cfg : config.
  Variable Bad : Prop.
  Hypothesis B : Binding cfg Bad.

  Definition slot_abs (r t : option tree) : Prop :=
    match r, t with None, None => True | Some a, Some a' => Abs cfg a a' | _, _ => False end.
  Definition root_abs (R T : tree) : Prop :=
    match R, T with Node _ _ _ ra rb, Node _ _ _ ta tb => slot_abs ra ta /\ slot_abs rb tb | _, _ => False end.

  Lemma slot_match dir r t : wf_slot dir r -> otree_ok r -> wf_slot dir t -> otree_ok t ->
    slot_label cfg r = slot_label cfg t -> slot_value_in cfg false r = slot_value_in cfg true t -> slot_abs r t \/ Bad.
  Proof.
    destruct r as [r|], t as [t|]; cbn [wf_slot otree_ok slot_label slot_value_in slot_abs]; intros Wr Or Wt Ot EL EV.
    - apply (value_abs cfg Bad B); try apply Wr; try apply Wt; assumption.
    - (* a present child's label is canonical, the empty label is not *)
      exfalso. destruct (wf_sub_label _ (proj2 Wr)) as [_ C]. rewrite EL, (b_empty_label_not_canonical _ _ B) in C. discriminate.
    - exfalso. destruct (wf_sub_label _ (proj2 Wt)) as [_ C]. rewrite <- EL, (b_empty_label_not_canonical _ _ B) in C. discriminate.
    - left. exact I.
  Qed.

  Theorem root_hash_abs R T :
    wf_root R = true -> tree_ok R -> wf_root T = true -> tree_ok T ->
    root_hash cfg false R = root_hash cfg true T -> root_abs R T \/ Bad.
  Proof using B.
    intros WR OR WT OT E. apply wf_root_slots in WR, WT.
    destruct WR as (le & mde & ra & rb & -> & Sra & Srb), WT as (le' & mde' & ta & tb & -> & Sta & Stb).
    unfold root_hash in E.
    apply (b_root_inj _ _ B) in E; [| exact (nv_D32 cfg Bad B false _ OR) | exact (nv_D32 cfg Bad B true _ OT)].
    destruct E as [E|]; [|right; assumption].
    destruct (classic_children ra rb) as [CR|[-> ->]], (classic_children ta tb) as [CT|[-> ->]].
    - destruct (node_hash_inj cfg Bad B false true _ _ _ _ _ _ _ _ _ _ OR OT CR CT E) as [(V1 & L1 & V2 & L2)|]; [|right; assumption].
      destruct OR as (_ & Ora & Orb), OT as (_ & Ota & Otb).
      destruct (slot_match false ra ta Sra Ora Sta Ota L1 V1) as [A1|]; [|right; assumption].
      destruct (slot_match true rb tb Srb Orb Stb Otb L2 V2) as [A2|]; [|right; assumption].
      left. split; assumption.
    - right. symmetry in E. exact (empty_root_not_node cfg Bad B false _ _ _ _ _ OR CR E).
    - right. exact (empty_root_not_node cfg Bad B true _ _ _ _ _ OT CT E).
    - left. split; exact I.
  Qed.

  Lemma slot_frontier dir r t T : slot_abs r t -> wf_slot dir t -> (forall c, t = Some c -> Sub c T) ->
    covers cfg T (map elem_of (oleaves r)) (oleaves t).
  Proof.
    destruct r as [r|], t as [t|]; cbn [slot_abs wf_slot oleaves]; intros H W S; try destruct H.
    - apply (covers_up cfg t); [apply S; reflexivity | apply abs_frontier; [exact H | apply W]].
    - split; [intros x [] | intros y []].
  Qed.

  Lemma root_frontier R T : root_abs R T -> wf_root T = true -> frontier cfg (map elem_of (leaves R)) T.
  Proof.
    intros HA WT. apply wf_root_slots in WT. destruct WT as (le & mde & ta & tb & -> & Sa & Sb).
    destruct R as [|lr le0 mde0 ra rb]; [destruct HA|]. destruct HA as [Ha Hb].
    unfold frontier. rewrite !leaves_node, map_app.
    apply covers_app; [apply (slot_frontier false ra ta _ Ha Sa); intros c -> | apply (slot_frontier true rb tb _ Hb Sb); intros c ->]; auto using Sub.
  Qed.

  Lemma root_abs_empty T : root_abs empty_root T -> leaves T = [].
  Proof.
    destruct T as [|l le mde ta tb]; [intros []|]. cbn [root_abs empty_root]. intros [Ha Hb].
    destruct ta; [destruct Ha|]. destruct tb; [destruct Hb|]. reflexivity.
  Qed.

  Definition troot_ok (T : tree) : Prop := tree_ok T /\ wf_root T = true /\ epochs_ok T.

  (* what the Rust types guarantee about a proof (32-byte values and digests, NodeLabel), plus the
     one model-level premise: labels carry no stray bits beyond their length *)
  Definition proof_ok (p : list elem * list elem) : Prop :=
    elabs_ok (snd p ++ fst p) /\ (forall x, In x (snd p ++ fst p) -> D32 (e_value x)).

  Lemma empty_root_ok : wf_root empty_root = true /\ tree_ok empty_root.
  Proof. split; [reflexivity|]. cbn [tree_ok empty_root tlabel]. split; [apply WF_LW; apply nl_root_wf | split; exact I]. Qed.

  Lemma elem_of_lf_of k nodes : map elem_of (map (lf_of k) nodes) = nodes.
  Proof. rewrite map_map. rewrite <- (map_id nodes) at 2. apply map_ext. intros []. reflexivity. Qed.

  Lemma rebuild_frontier nodes latest T :
    troot_ok T -> nodes_ok nodes -> (forall x, In x nodes -> bits_of (e_label x) <> []) ->
    (forall x, In x nodes -> D32 (e_value x)) ->
    rebuild_root cfg nodes latest = Some (root_hash cfg true T) -> frontier cfg nodes T \/ Bad.
  Proof.
    intros (OT & WT & _) Hno Hnz HD E. unfold rebuild_root in E.
    destruct (rebuild_spec (c_empty_label cfg) (b_empty_label_not_canonical _ _ B) latest nodes Hno Hnz) as (R & n & EB & WR & P).
    rewrite EB in E. injection E as E.
    assert (OR : tree_ok R).
    { apply wf_root_tree_ok; [exact WR|]. intros y Hy. apply (Permutation_in _ P) in Hy. apply in_map_iff in Hy.
      destruct Hy as (u & <- & Hu). apply HD. exact Hu. }
    destruct (root_hash_abs R T WR OR WT OT E) as [Ab|]; [|right; assumption]. left.
    apply (frontier_perm cfg (map elem_of (leaves R))); [|exact (root_frontier R T Ab WT)].
    rewrite <- (elem_of_lf_of (latest + 1) nodes). apply Permutation_map. exact P.
  Qed.

  (* a node carrying the zero-length label is dropped by the rebuild, and a prefix-free list holds
     nothing beside it: a list of such nodes rebuilds to the empty tree *)
  Lemma rebuild_empty nodes latest T :
    troot_ok T -> nodes_ok nodes -> (forall y, In y nodes -> bits_of (e_label y) = []) ->
    rebuild_root cfg nodes latest = Some (root_hash cfg true T) -> leaves T = [] \/ Bad.
  Proof.
    intros (OT & WT & _) Hno Hall E.
    assert (ER : rebuild_root cfg nodes latest = Some (root_hash cfg false empty_root)).
    { destruct nodes as [|x r]; [reflexivity|]. pose proof (Hall x (or_introl eq_refl)) as Ex.
      rewrite (empty_label_alone _ x Hno (or_introl eq_refl) Ex). unfold rebuild_root.
      rewrite (rebuild_root_only _ latest x (proj1 (proj1 Hno x (or_introl eq_refl))) Ex). reflexivity. }
    rewrite ER in E. injection E as E. destruct empty_root_ok as [We Oe].
    destruct (root_hash_abs empty_root T We Oe WT OT E) as [Ab|]; [|right; assumption].
    left. exact (root_abs_empty T Ab).
  Qed.

  Lemma names_same_leaves T0 T1 x A A' :
    troot_ok T0 -> troot_ok T1 -> names cfg T0 x A -> names cfg T1 x A' -> leaves A = leaves A' \/ Bad.
  Proof.
    intros (O0 & _ & E0) (O1 & _ & E1) (S & W & L & V) (S' & W' & L' & V').
    apply (value_eq_leaves cfg Bad B); try assumption; try congruence;
      first [eapply Sub_ok; eassumption | eapply sub_epochs_ok; eassumption].
  Qed.

  Section OneStep.
    Variables (ins unch : list elem) (T0 T1 : tree) (e : N).
    Hypotheses (HT0 : troot_ok T0) (HT1 : troot_ok T1) (Hp : proof_ok (ins, unch)) (He : e < 2 ^ 64).
    Hypothesis Hv : verify_consecutive cfg true (ins, unch) (root_hash cfg true T0) (root_hash cfg true T1) e = true.

    Lemma step_views :
      Bad \/ (leaves T0 = [] /\ leaves T1 = []) \/
      (frontier cfg unch T0 /\ frontier cfg (unch ++ map (stamp cfg e) ins) T1).
    Proof using B HT0 HT1 Hp Hv.
      destruct Hp as (Hok & HD). apply verify_consecutive_iff in Hv. destruct Hv as (Hpf & A0 & A1). cbn [fst snd] in Hok, HD.
      set (L' := unch ++ map (stamp cfg e) ins) in *.
      assert (Hno : nodes_ok L').
      { apply (nodes_ok_same_labels (unch ++ ins)); [symmetry; apply stamped_labels|].
        apply prefix_free_labels_iff; assumption. }
      assert (HD' : forall x, In x L' -> D32 (e_value x)).
      { intros x Hx. unfold L' in Hx. apply in_app_or in Hx. destruct Hx as [Hx|Hx].
        - apply HD. apply in_or_app. left. exact Hx.
        - apply in_map_iff in Hx. destruct Hx as (i & <- & Hi). apply (b_leaf_D32 _ _ B). }
      pose proof (nodes_ok_app_l _ _ Hno) as Hnu.
      assert (Hin : forall x, In x unch -> In x L') by (intros x Hx; apply in_or_app; left; exact Hx).
      destruct (all_or_some_empty L') as [Hnz|(x & Hx & Ex)].
      - destruct (rebuild_frontier unch 0 T0 HT0 Hnu (fun x Hx => Hnz x (Hin x Hx)) (fun x Hx => HD' x (Hin x Hx)) A0) as [F0|]; [|left; assumption].
        destruct (rebuild_frontier L' (e - 1) T1 HT1 Hno Hnz HD' A1) as [F1|]; [|left; assumption].
        right. right. split; assumption.
      - (* some node carries the zero-length label: it is the only one *)
        assert (Hall : forall y, In y L' -> bits_of (e_label y) = []).
        { intros y Hy. rewrite (empty_label_alone L' x Hno Hx Ex) in Hy. destruct Hy as [<-|[]]. exact Ex. }
        destruct (rebuild_empty L' (e - 1) T1 HT1 Hno Hall A1) as [L1|]; [|left; assumption].
        destruct (rebuild_empty unch 0 T0 HT0 Hnu (fun y Hy => Hall y (Hin y Hy)) A0) as [L0|]; [|left; assumption].
        right. left. split; assumption.
    Qed.

    (* NOTHING REMOVED OR ALTERED: every leaf the start hash commits to - label, value and epoch - is
       committed to by the end hash *)
    Theorem audit_step_keeps : (forall y, In y (leaves T0) -> In y (leaves T1)) \/ Bad.
    Proof using B HT0 HT1 Hp Hv.
      destruct step_views as [Hb|[[L0 L1]|[F0 F1]]].
      - right. exact Hb.
      - left. intros y Hy. rewrite L0 in Hy. destruct Hy.
      - (* y lies below an unchanged node; the end tree holds a subtree of the same label and hash *)
        apply forall_or_bad. intros y Hy.
        destruct (proj2 F0 y Hy) as (x & A & Hx & NA & HyA).
        destruct (proj1 F1 x (in_or_app _ _ _ (or_introl Hx))) as [A' NA'].
        destruct (names_same_leaves T0 T1 x A A' HT0 HT1 NA NA') as [EQ|]; [|right; assumption].
        left. apply (Sub_leaves_in A' T1 (proj1 NA')). rewrite <- EQ. exact HyA.
    Qed.

    (* NOTHING ELSE ADDED: a leaf the end hash commits to is a leaf of the start tree or one of the
       proof's inserted nodes, stamped with the end epoch *)
    Theorem audit_step_adds_only :
      (forall y, In y (leaves T1) -> In y (leaves T0) \/ exists i, In i ins /\ y = LF (e_label i) (e_value i) e) \/ Bad.
    Proof using B HT0 HT1 Hp He Hv.
      destruct step_views as [Hb|[[L0 L1]|[F0 F1]]].
      - right. exact Hb.
      - left. intros y Hy. rewrite L1 in Hy. destruct Hy.
      - apply forall_or_bad. intros y Hy.
        destruct (proj2 F1 y Hy) as (x & A' & Hx & NA' & HyA'). apply in_app_or in Hx. destruct Hx as [Hx|Hx].
        + (* below an unchanged node: the same subtree hangs in the start tree *)
          destruct (proj1 F0 x Hx) as [A NA].
          destruct (names_same_leaves T1 T0 x A' A HT1 HT0 NA' NA) as [EQ|]; [|right; assumption].
          left. left. apply (Sub_leaves_in A T0 (proj1 NA)). rewrite <- EQ. exact HyA'.
        + (* below an inserted node: it is that node, a leaf with the end epoch *)
          apply in_map_iff in Hx. destruct Hx as (i & <- & Hi). destruct NA' as (SA' & _ & LA' & VA'). cbn [stamp e_label e_value] in LA', VA'.
          destruct HT1 as (O1 & _ & E1). destruct Hp as [_ HD]. cbn [fst snd] in HD.
          pose proof (Sub_ok _ _ SA' O1) as OA'. pose proof (HD i (in_or_app _ _ _ (or_intror Hi))) as Di.
          destruct A' as [l' v' e'|l' le' mde' a' b'].
          * cbn [node_value] in VA'. cbn [tlabel] in LA'.
            apply (b_leaf_inj _ _ B) in VA'; [| apply OA' | exact Di | apply (sub_epochs_ok _ _ SA' E1 (LF l' v' e')); left; reflexivity | exact He].
            destruct VA' as [[-> ->]|]; [|right; assumption].
            left. right. exists i. split; [exact Hi|]. destruct HyA' as [<-|[]]. rewrite LA'. reflexivity.
          * right. symmetry in VA'. destruct (classic_children a' b') as [N|[-> ->]].
            -- exact (leaf_not_node cfg Bad B true _ _ _ _ _ _ _ Di OA' N VA').
            -- destruct HyA'.
    Qed.
  End OneStep.

  Fixpoint grows (Ts : list tree) : Prop :=
    match Ts with
    | T0 :: ((T1 :: _) as r) => (forall y, In y (leaves T0) -> In y (leaves T1)) /\ grows r
    | _ => True
    end.

  Theorem audit_chain_keeps : forall Ts proofs epochs,
    Forall (troot_ok) Ts -> Forall proof_ok proofs ->
    verify_chain cfg true (map (root_hash cfg true) Ts) proofs epochs = true ->
    grows Ts \/ Bad.
  Proof.
    induction Ts as [|T0 r IH]; intros proofs epochs HT HP H; [left; exact I|].
    destruct r as [|T1 r']; [left; exact I|].
    cbn [map verify_chain] in H. destruct proofs as [|p ps]; [discriminate|]. destruct epochs as [|e es]; [discriminate|].
    apply andb_true_iff in H. destruct H as [H1 H2].
    inversion HT as [|? ? HT0 HTr]; subst. inversion HP as [|? ? Hp Hps]; subst.
    assert (HT1 : troot_ok T1) by (inversion HTr; assumption).
    destruct p as [ins unch].
    destruct (audit_step_keeps ins unch T0 T1 (e + 1) HT0 HT1 Hp H1) as [K|]; [|right; assumption].
    destruct (IH ps es HTr Hps H2) as [G|]; [|right; assumption].
    left. cbn [grows]. split; assumption.
  Qed.

  Lemma grows_first : forall r T0, grows (T0 :: r) -> forall T, In T r -> forall y, In y (leaves T0) -> In y (leaves T).
  Proof.
    induction r as [|T1 r IH]; intros T0 G T HT y Hy; [destruct HT|].
    cbn [grows] in G. destruct G as [G1 G2]. destruct HT as [<-|HT]; [apply G1; exact Hy|].
    apply (IH T1 G2 T HT). apply G1. exact Hy.
  Qed.

  (* audit_verify over the whole range: whatever the first root hash commits to, the last one does *)
  Theorem audit_verify_keeps Ts p :
    Forall (troot_ok) Ts -> Forall proof_ok (ap_proofs p) ->
    audit_verify_gen cfg true (map (root_hash cfg true) Ts) p = true ->
    (forall T0 r, Ts = T0 :: r -> forall T, In T r -> forall y, In y (leaves T0) -> In y (leaves T)) \/ Bad.
  Proof.
    intros HT HP H. unfold audit_verify_gen in H. apply andb_true_iff in H. destruct H as [_ H].
    destruct (audit_chain_keeps Ts _ _ HT HP H) as [G|]; [|right; assumption].
    left. intros T0 r -> T HTr y Hy. apply (grows_first r T0 G T HTr y Hy).
  Qed.
End Step.
