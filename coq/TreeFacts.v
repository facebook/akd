(* Tries, without a hash configuration: subtrees ([Sub]), the well-formedness predicates ([wfg] here,
   wf_sub and wf_root of Tree.v) with their induction principles, and where the leaves of a
   well-formed trie lie.  Then the soundness of membership / non-membership verification against the
   root hash of a well-formed tree (C05), for an arbitrary configuration whose hash formulas are
   binding up to an explicit bad event [Bad] (a hash collision or a zero-digest preimage;
   HashingFacts.v proves the hypotheses for both real configurations); its core is [chain_sound]. *)
From Coq Require Import List Bool Arith NArith Lia.
From Akd Require Import Bits NodeLabel NodeLabelFacts Hashing Tree.
Import ListNotations.
Open Scope N_scope.

Definition D32 (b : bytes) : Prop := length b = 32%nat.
(* what the Rust type NodeLabel guarantees: 32 value bytes (each < 256) and a u32 length *)
Definition LW (l : nlabel) : Prop :=
  length (lval l) = 32%nat /\ (forall i, byte_at (lval l) i < 256) /\ llen l < 2 ^ 32.

Lemma tree_ind' (P : tree -> Prop) :
  (forall l v e, P (Leaf l v e)) ->
  (forall l le mde a b, (forall c, a = Some c -> P c) -> (forall c, b = Some c -> P c) -> P (Node l le mde a b)) ->
  forall t, P t.
Proof.
  intros HL HN. fix IH 1. intros [l v e|l le mde a b]; [apply HL|].
  apply HN; intros c Hc.
  - destruct a as [a'|]; [|discriminate]. injection Hc as <-. apply IH.
  - destruct b as [b'|]; [|discriminate]. injection Hc as <-. apply IH.
Qed.

(* every stored leaf value is a digest, every label a Rust NodeLabel *)
Fixpoint tree_ok (t : tree) : Prop :=
  LW (tlabel t) /\
  match t with
  | Leaf _ v _ => D32 v
  | Node _ _ _ a b =>
    (match a with Some c => tree_ok c | None => True end) /\
    (match b with Some c => tree_ok c | None => True end)
  end.

Definition otree_ok (o : option tree) : Prop := match o with Some c => tree_ok c | None => True end.

Lemma tree_ok_label t : tree_ok t -> LW (tlabel t).
Proof. destruct t; simpl; tauto. Qed.

Lemma tree_ok_child t dir : tree_ok t -> otree_ok (child t dir).
Proof. destruct t as [|l le mde a b]; [intros _; exact I|]. simpl. destruct dir; tauto. Qed.

Inductive Sub : tree -> tree -> Prop :=
| Sub_refl t : Sub t t
| Sub_l A l le mde a b : Sub A a -> Sub A (Node l le mde (Some a) b)
| Sub_r A l le mde a b : Sub A b -> Sub A (Node l le mde a (Some b)).

Lemma Sub_child A t dir c : child t dir = Some c -> Sub A c -> Sub A t.
Proof. destruct t as [|l le mde a b]; [discriminate|]. destruct dir; cbn [child]; intros -> H; auto using Sub. Qed.

Lemma Sub_ind_child (P : tree -> tree -> Prop) :
  (forall t, P t t) ->
  (forall A t dir c, child t dir = Some c -> Sub A c -> P A c -> P A t) ->
  forall A t, Sub A t -> P A t.
Proof.
  intros H0 HS. induction 1 as [t|A l le mde a b HA IH|A l le mde a b HA IH]; [apply H0| |].
  - exact (HS A (Node l le mde (Some a) b) false a eq_refl HA IH).
  - exact (HS A (Node l le mde a (Some b)) true b eq_refl HA IH).
Qed.

Lemma Sub_trans A B C : Sub A B -> Sub B C -> Sub A C.
Proof. intros H1 H2. induction H2; auto using Sub. Qed.

Lemma Sub_ok A t : Sub A t -> tree_ok t -> tree_ok A.
Proof.
  induction 1 as [t|A t dir c Hc _ IH] using Sub_ind_child; intros Hok; [exact Hok|].
  apply IH. pose proof (tree_ok_child t dir Hok) as H. rewrite Hc in H. exact H.
Qed.

Definition oleaves (t : option tree) : list leaf := match t with Some c => leaves c | None => [] end.

Lemma leaves_node l le mde a b : leaves (Node l le mde a b) = oleaves a ++ oleaves b.
Proof. reflexivity. Qed.

Lemma leaves_node_in t y : In y (leaves t) -> is_leaf t = false -> exists dir c, child t dir = Some c /\ In y (leaves c).
Proof.
  destruct t as [|l le mde a b]; [discriminate|]. intros Hy _. simpl in Hy. apply in_app_or in Hy. destruct Hy as [Hy|Hy].
  - destruct a as [c|]; [|destruct Hy]. exists false, c. auto.
  - destruct b as [c|]; [|destruct Hy]. exists true, c. auto.
Qed.

Lemma Sub_leaves_in A t : Sub A t -> forall y, In y (leaves A) -> In y (leaves t).
Proof.
  induction 1 as [t|A l le mde a b HS IH|A l le mde a b HS IH]; intros y Hy; [exact Hy| |];
    cbn [leaves]; apply in_or_app; [left | right]; apply IH; exact Hy.
Qed.

Lemma leaf_Sub t : forall y, In y (leaves t) -> Sub (Leaf (lf_label y) (lf_value y) (lf_epoch y)) t.
Proof.
  induction t as [l v e|l le mde a b IHa IHb] using tree_ind'; intros y Hy.
  - destruct Hy as [<-|[]]. apply Sub_refl.
  - destruct (leaves_node_in _ y Hy eq_refl) as (dir & c & Hc & Hyc). apply (Sub_child _ _ dir c Hc).
    destruct dir; cbn [child] in Hc; [apply (IHb c Hc y Hyc) | apply (IHa c Hc y Hyc)].
Qed.

(* [wf_sub] without the demand for two children: holds of subtrees and of the root alike *)
Fixpoint wfg (t : tree) : bool :=
  wf_label (tlabel t) && canonical (tlabel t) &&
  match t with
  | Leaf _ _ _ => true
  | Node l _ _ a b =>
    (match a with
     | None => true
     | Some c => (match pord (bits_of l) (bits_of (tlabel c)) with Some false => true | _ => false end) && wfg c
     end) &&
    (match b with
     | None => true
     | Some c => (match pord (bits_of l) (bits_of (tlabel c)) with Some true => true | _ => false end) && wfg c
     end)
  end.

Lemma wfg_label t : wfg t = true -> WF (tlabel t) /\ canonical (tlabel t) = true.
Proof.
  intros H. assert (H' : wf_label (tlabel t) && canonical (tlabel t) = true).
  { destruct t; simpl in H; apply andb_true_iff in H; apply H. }
  apply andb_true_iff in H'. exact H'.
Qed.

Lemma wfg_child l le mde a b (dir : bool) c :
  wfg (Node l le mde a b) = true -> (if dir then b else a) = Some c ->
  pord (bits_of l) (bits_of (tlabel c)) = Some dir /\ wfg c = true.
Proof.
  simpl. intros H Hc. apply andb_true_iff in H. destruct H as [_ H]. apply andb_true_iff in H. destruct H as [Ha Hb].
  destruct dir; subst.
  - apply andb_true_iff in Hb. destruct Hb as [Hb1 Hb2].
    destruct (pord (bits_of l) (bits_of (tlabel c))) as [[|]|]; try discriminate. auto.
  - apply andb_true_iff in Ha. destruct Ha as [Ha1 Ha2].
    destruct (pord (bits_of l) (bits_of (tlabel c))) as [[|]|]; try discriminate. auto.
Qed.

Lemma wfg_child' t dir c : wfg t = true -> child t dir = Some c ->
  pord (bits_of (tlabel t)) (bits_of (tlabel c)) = Some dir /\ wfg c = true.
Proof. destruct t as [|l le mde a b]; [discriminate|]. apply wfg_child. Qed.

Lemma wf_sub_node l le mde a b : wf_sub (Node l le mde a b) = true ->
  exists a' b', a = Some a' /\ b = Some b' /\ wf_label l = true /\ canonical l = true /\
    pord (bits_of l) (bits_of (tlabel a')) = Some false /\ pord (bits_of l) (bits_of (tlabel b')) = Some true /\
    wf_sub a' = true /\ wf_sub b' = true.
Proof.
  cbn [wf_sub tlabel]. intros H. destruct a as [a'|], b as [b'|]; rewrite ?andb_false_r in H; try discriminate.
  rewrite !andb_true_iff in H. destruct H as [[W C] [[[Pa Pb] Wa] Wb]]. exists a', b'.
  destruct (pord (bits_of l) (bits_of (tlabel a'))) as [[|]|]; try discriminate.
  destruct (pord (bits_of l) (bits_of (tlabel b'))) as [[|]|]; try discriminate. auto 10.
Qed.

Lemma wf_sub_leaf l v e : wf_sub (Leaf l v e) = true <-> WF l /\ canonical l = true.
Proof. cbn [wf_sub tlabel]. rewrite andb_true_r, andb_true_iff. reflexivity. Qed.

Lemma wf_sub_node_intro l le mde a b :
  WF l -> canonical l = true ->
  pord (bits_of l) (bits_of (tlabel a)) = Some false -> pord (bits_of l) (bits_of (tlabel b)) = Some true ->
  wf_sub a = true -> wf_sub b = true -> wf_sub (Node l le mde (Some a) (Some b)) = true.
Proof. intros Wl Cl Pa Pb Wa Wb. cbn [wf_sub tlabel]. unfold WF in Wl. rewrite Wl, Cl, Pa, Pb, Wa, Wb. reflexivity. Qed.

Lemma wf_sub_ind (P : tree -> Prop) :
  (forall l v e, WF l -> canonical l = true -> P (Leaf l v e)) ->
  (forall l le mde a b, WF l -> canonical l = true ->
     pord (bits_of l) (bits_of (tlabel a)) = Some false -> pord (bits_of l) (bits_of (tlabel b)) = Some true ->
     wf_sub a = true -> wf_sub b = true -> P a -> P b -> P (Node l le mde (Some a) (Some b))) ->
  forall t, wf_sub t = true -> P t.
Proof.
  intros HL HN. induction t as [l v e|l le mde a b IHa IHb] using tree_ind'; intros W.
  - apply wf_sub_leaf in W. apply HL; apply W.
  - destruct (wf_sub_node _ _ _ _ _ W) as (a' & b' & -> & -> & Wl & Cl & Pa & Pb & Wa & Wb).
    apply HN; auto.
Qed.

Lemma wf_sub_wfg t : wf_sub t = true -> wfg t = true.
Proof.
  induction t as [l v e|l le mde a b IHa IHb] using tree_ind'; intros H; [exact H|].
  destruct (wf_sub_node _ _ _ _ _ H) as (a' & b' & -> & -> & W & C & Pa & Pb & Wa & Wb).
  cbn [wfg tlabel]. rewrite W, C, Pa, Pb, (IHa a' eq_refl Wa), (IHb b' eq_refl Wb). reflexivity.
Qed.

Lemma wf_sub_label t : wf_sub t = true -> WF (tlabel t) /\ canonical (tlabel t) = true.
Proof. intros H. apply wfg_label, wf_sub_wfg, H. Qed.

Lemma nl_root_wf : wf_label nl_root = true /\ canonical nl_root = true.
Proof. split; vm_compute; reflexivity. Qed.

Lemma bits_of_root : bits_of nl_root = [].
Proof. reflexivity. Qed.

Lemma wf_child_iff l dir o : wf_child l dir o = true <->
  match o with Some c => pord (bits_of l) (bits_of (tlabel c)) = Some dir /\ wf_sub c = true | None => True end.
Proof.
  destruct o as [c|]; cbn [wf_child]; [|tauto]. rewrite andb_true_iff.
  destruct (pord (bits_of l) (bits_of (tlabel c))) as [d|].
  - split; intros [H W]; (split; [|exact W]); [apply eqb_prop in H; congruence | injection H as ->; apply eqb_reflx].
  - split; intros [H _]; discriminate.
Qed.

(* the slots of a well-formed root; [bits_of nl_root] computes to [] *)
Definition wf_slot (dir : bool) (o : option tree) : Prop :=
  match o with Some c => pord [] (bits_of (tlabel c)) = Some dir /\ wf_sub c = true | None => True end.

Lemma wf_root_slots t : wf_root t = true <->
  exists le mde a b, t = Node nl_root le mde a b /\ wf_slot false a /\ wf_slot true b.
Proof.
  split.
  - destruct t as [|l le mde a b]; [discriminate|]. cbn [wf_root]. rewrite !andb_true_iff, nl_eqb_eq, !wf_child_iff.
    intros [[-> Ha] Hb]. exists le, mde, a, b. exact (conj eq_refl (conj Ha Hb)).
  - intros (le & mde & a & b & -> & Ha & Hb). apply (wf_child_iff nl_root) in Ha, Hb.
    cbn [wf_root]. rewrite Ha, Hb, nl_eqb_refl. reflexivity.
Qed.

Lemma wf_root_shape t : wf_root t = true -> tlabel t = nl_root /\ is_leaf t = false.
Proof. intros W. apply wf_root_slots in W. destruct W as (le & mde & a & b & -> & _). split; reflexivity. Qed.

Lemma wf_root_wfg t : wf_root t = true -> wfg t = true.
Proof.
  intros H. apply wf_root_slots in H. destruct H as (le & mde & a & b & -> & Ha & Hb).
  cbn [wfg tlabel]. destruct nl_root_wf as [-> ->]. rewrite bits_of_root.
  destruct a as [a'|]; [destruct Ha as [-> Wa]; rewrite (wf_sub_wfg a' Wa)|];
    (destruct b as [b'|]; [destruct Hb as [-> Wb]; rewrite (wf_sub_wfg b' Wb)|]); reflexivity.
Qed.

Lemma child_wf_sub t dir c : wf_root t = true \/ wf_sub t = true -> child t dir = Some c -> wf_sub c = true.
Proof.
  intros [W|W] Hc.
  - apply wf_root_slots in W. destruct W as (le & mde & a & b & -> & Ha & Hb).
    destruct dir; cbn [child] in Hc; subst; [apply Hb | apply Ha].
  - destruct t as [|l le mde a b]; [discriminate|].
    destruct (wf_sub_node _ _ _ _ _ W) as (a' & b' & -> & -> & _ & _ & _ & _ & Wa & Wb). destruct dir; injection Hc as <-; assumption.
Qed.

Lemma Sub_wf_sub A t : Sub A t -> wf_root t = true \/ wf_sub t = true -> A = t \/ wf_sub A = true.
Proof.
  induction 1 as [t|A t dir c Hc _ IH] using Sub_ind_child; intros W; [left; reflexivity|].
  right. pose proof (child_wf_sub t dir c W Hc) as Wc. destruct (IH (or_intror Wc)) as [->|WA]; assumption.
Qed.

Lemma wf_sub_full_leaf t : wf_sub t = true -> length (bits_of (tlabel t)) = 256%nat -> is_leaf t = true.
Proof.
  destruct t as [|l le mde a b]; [reflexivity|]. intros W Hl. exfalso. cbn [tlabel] in Hl.
  destruct (wf_sub_node _ _ _ _ _ W) as (a' & b' & _ & _ & _ & _ & Pa & _ & Wa & _).
  apply pord_length in Pa. pose proof (bits_le_256 _ (proj1 (wf_sub_label a' Wa))) as La. clear - Pa La Hl. lia.
Qed.

Lemma full_label_is_leaf t A : wf_root t = true -> Sub A t -> llen (tlabel A) = 256 ->
  exists v e, A = Leaf (tlabel A) v e.
Proof.
  intros Hw HS Hl. destruct (Sub_wf_sub A t HS (or_introl Hw)) as [->|HA].
  - destruct (wf_root_shape t Hw) as [Hr _]. rewrite Hr in Hl. discriminate.
  - pose proof (wf_sub_full_leaf A HA) as Hf. rewrite (length_bits_of _ (proj1 (wf_sub_label A HA))), Hl in Hf.
    destruct A; [eauto | discriminate (Hf eq_refl)].
Qed.

Lemma Sub_wfg A t : Sub A t -> wfg t = true -> wfg A = true.
Proof.
  induction 1 as [t|A t dir c Hc _ IH] using Sub_ind_child; intros Hw; [exact Hw|].
  apply IH. apply (wfg_child' t dir c Hw Hc).
Qed.

Lemma Sub_prefix A t : Sub A t -> wfg t = true -> prefixb (bits_of (tlabel t)) (bits_of (tlabel A)) = true.
Proof.
  induction 1 as [t|A t dir c Hc _ IH] using Sub_ind_child; intros Hw; [apply prefixb_refl|].
  destruct (wfg_child' t dir c Hw Hc) as [Hp Hwc].
  eapply prefixb_trans; [eapply prefixb_app_l, pord_prefix, Hp | apply IH; exact Hwc].
Qed.

Lemma leaves_prefix t : wfg t = true ->
  forall y, In y (leaves t) -> prefixb (bits_of (tlabel t)) (bits_of (lf_label y)) = true.
Proof. intros Hw y Hy. exact (Sub_prefix _ t (leaf_Sub t y Hy) Hw). Qed.

Lemma WF_LW l : WF l -> LW l.
Proof.
  intros W. destruct (WF_parts l W) as (A & C & D). split; [exact A|]. split; [exact D|].
  assert (2 ^ 32 = 4294967296) by reflexivity. lia.
Qed.

Lemma wf_sub_tree_ok : forall t, wf_sub t = true -> (forall y, In y (leaves t) -> D32 (lf_value y)) -> tree_ok t.
Proof.
  refine (wf_sub_ind _ _ _).
  - intros l v e W _ HD. split; [apply WF_LW; exact W | apply (HD (LF l v e)); left; reflexivity].
  - intros l le mde a b W _ _ _ _ _ IHa IHb HD. cbn [leaves] in HD. split; [apply WF_LW; exact W|].
    split; [apply IHa | apply IHb]; intros y Hy; apply HD; apply in_or_app; auto.
Qed.

Lemma wf_root_tree_ok t : wf_root t = true -> (forall y, In y (leaves t) -> D32 (lf_value y)) -> tree_ok t.
Proof.
  intros W HD. apply wf_root_slots in W. destruct W as (le & mde & a & b & -> & Sa & Sb).
  rewrite leaves_node in HD. split; [apply WF_LW; apply nl_root_wf|].
  split; [destruct a as [c|] | destruct b as [c|]]; try exact I;
    (apply wf_sub_tree_ok; [apply Sa || apply Sb | intros y Hy; apply HD; apply in_or_app; auto]).
Qed.

Lemma wf_sub_leaves_below p d c : wf_sub c = true -> pord p (bits_of (tlabel c)) = Some d ->
  forall y, In y (leaves c) -> prefixb (p ++ [d]) (bits_of (lf_label y)) = true.
Proof.
  intros W P y Hy. eapply prefixb_trans; [apply pord_prefix; exact P|]. apply leaves_prefix; [apply wf_sub_wfg; exact W | exact Hy].
Qed.

Lemma wf_slot_leaves dir o : wf_slot dir o ->
  forall y, In y (oleaves o) -> prefixb ([] ++ [dir]) (bits_of (lf_label y)) = true.
Proof. destruct o as [c|]; [|intros _ y []]. intros [P W]. exact (wf_sub_leaves_below [] dir c W P). Qed.

Lemma leaves_label_ok t : wfg t = true ->
  forall y, In y (leaves t) -> WF (lf_label y) /\ canonical (lf_label y) = true.
Proof. intros Hw y Hy. exact (wfg_label _ (Sub_wfg _ t (leaf_Sub t y Hy) Hw)). Qed.

Lemma Sub_leaves A t : Sub A t -> wfg t = true ->
  forall y, In y (leaves t) -> prefixb (bits_of (tlabel A)) (bits_of (lf_label y)) = true -> In y (leaves A).
Proof.
  induction 1 as [t|A t dir c Hc HS IH] using Sub_ind_child; intros Hw y Hy Hp; [exact Hy|].
  destruct (wfg_child' t dir c Hw Hc) as [Pc Wc].
  assert (Hl : is_leaf t = false) by (destruct t; [discriminate | reflexivity]).
  destruct (leaves_node_in t y Hy Hl) as (dir' & c' & Hc' & Hy').
  destruct (Bool.bool_dec dir dir') as [<-|Hd].
  - rewrite Hc in Hc'. injection Hc' as <-. apply IH; assumption.
  - (* y would lie below both children *)
    exfalso. destruct (wfg_child' t dir' c' Hw Hc') as [Pc' Wc'].
    apply (children_disjoint _ dir dir' _ _ (bits_of (lf_label y)) Hd (pord_prefix _ _ _ Pc) (pord_prefix _ _ _ Pc')).
    + eapply prefixb_trans; [apply (Sub_prefix A c HS Wc) | exact Hp].
    + apply (leaves_prefix c' Wc' y Hy').
Qed.

Section Hashed.
  Variable cfg : config.

  (* the (label, value) a parent hashes for a child slot; [we] = the NodeHashingMode *)
  Definition slot_label (o : option tree) : nlabel := match o with Some c => tlabel c | None => c_empty_label cfg end.
  Definition slot_value_in (we : bool) (o : option tree) : bytes :=
    match o with Some c => node_value cfg we c | None => c_empty_node_hash cfg end.
  Definition slot_value (o : option tree) : bytes := match o with Some c => node_value cfg true c | None => c_empty_node_hash cfg end.

  Lemma hashval_node_slots we l le mde a b :
    hashval cfg we (Node l le mde a b) =
    match a, b with
    | None, None => c_empty_root_value cfg
    | _, _ => c_parent_hash cfg (slot_value_in we a) (lvalue cfg (slot_label a)) (slot_value_in we b) (lvalue cfg (slot_label b))
    end.
  Proof. destruct a as [[]|], b as [[]|]; reflexivity. Qed.

  Lemma hashval_node_in we l le mde a b :
    (a <> None \/ b <> None) ->
    hashval cfg we (Node l le mde a b) =
    c_parent_hash cfg (slot_value_in we a) (lvalue cfg (slot_label a)) (slot_value_in we b) (lvalue cfg (slot_label b)).
  Proof. intros H. rewrite hashval_node_slots. destruct a, b; try reflexivity. destruct H; congruence. Qed.

  Lemma hashval_node l le mde a b :
    (a <> None \/ b <> None) ->
    hashval cfg true (Node l le mde a b) =
    c_parent_hash cfg (slot_value a) (lvalue cfg (slot_label a)) (slot_value b) (lvalue cfg (slot_label b)).
  Proof. exact (hashval_node_in true l le mde a b). Qed.
End Hashed.

Section Sound.
  Variable cfg : config.
  Variable Bad : Prop.

  Hypothesis parent_inj : forall a la b lb a' la' b' lb',
    D32 a -> D32 a' -> D32 b -> D32 b' -> LW la -> LW la' -> LW lb -> LW lb' ->
    c_parent_hash cfg a (lvalue cfg la) b (lvalue cfg lb) =
    c_parent_hash cfg a' (lvalue cfg la') b' (lvalue cfg lb') ->
    (a = a' /\ lvalue cfg la = lvalue cfg la' /\ b = b' /\ lvalue cfg lb = lvalue cfg lb') \/ Bad.
  Hypothesis lvalue_inj : forall l l', LW l -> LW l' -> lvalue cfg l = lvalue cfg l' -> l = l' \/ Bad.
  Hypothesis leaf_not_parent : forall c e a la b lb,
    D32 c -> D32 a -> D32 b -> LW la -> LW lb ->
    c_leaf_hash cfg c e = c_parent_hash cfg a (lvalue cfg la) b (lvalue cfg lb) -> Bad.
  Hypothesis root_inj : forall v v', D32 v -> D32 v' ->
    c_root_hash_from_val cfg v = c_root_hash_from_val cfg v' -> v = v' \/ Bad.
  Hypothesis empty_root_not_parent : forall a la b lb, D32 a -> D32 b -> LW la -> LW lb ->
    c_empty_root_value cfg = c_parent_hash cfg a (lvalue cfg la) b (lvalue cfg lb) -> Bad.
  Hypothesis empty_node_not_parent : forall a la b lb, D32 a -> D32 b -> LW la -> LW lb ->
    c_empty_node_hash cfg = c_parent_hash cfg a (lvalue cfg la) b (lvalue cfg lb) -> Bad.
  Hypothesis leaf_not_empty_root : forall c e, D32 c -> c_leaf_hash cfg c e = c_empty_root_value cfg -> Bad.
  Hypothesis parent_D32 : forall a la b lb, D32 (c_parent_hash cfg a la b lb).
  Hypothesis leaf_D32 : forall c e, D32 (c_leaf_hash cfg c e).
  Hypothesis empty_root_D32 : D32 (c_empty_root_value cfg).
  Hypothesis empty_node_D32 : D32 (c_empty_node_hash cfg).
  Hypothesis empty_label_LW : LW (c_empty_label cfg).
  Hypothesis empty_label_not_root : c_empty_label cfg <> nl_root.

  Lemma node_value_D32_in we t : tree_ok t -> D32 (node_value cfg we t).
  Proof.
    destruct t as [l v e|l le mde a b]; simpl; intros H; [destruct we; [apply leaf_D32 | apply H]|].
    destruct a, b; auto.
  Qed.

  Lemma node_value_D32 t : tree_ok t -> D32 (node_value cfg true t).
  Proof. apply node_value_D32_in. Qed.

  Lemma slot_value_D32_in we o : otree_ok o -> D32 (slot_value_in cfg we o).
  Proof. destruct o; simpl; intros; [now apply node_value_D32_in|apply empty_node_D32]. Qed.

  Lemma slot_value_D32 o : otree_ok o -> D32 (slot_value cfg o).
  Proof. apply (slot_value_D32_in true). Qed.

  Lemma slot_label_LW o : otree_ok o -> LW (slot_label cfg o).
  Proof. destruct o as [c|]; simpl; intros H; [apply tree_ok_label; exact H|apply empty_label_LW]. Qed.

  Definition sib_ok (sp : sibling_proof) : Prop := D32 (sp_sib_val sp) /\ LW (sp_sib_label sp) /\ LW (sp_label sp).

  (* where a verified chain can start *)
  Inductive Origin (cl : nlabel) (cv : bytes) (t : tree) : Prop :=
  | O_node A : Sub A t -> lvalue cfg cl = lvalue cfg (tlabel A) -> cv = node_value cfg true A -> Origin cl cv t
  | O_empty l le mde a b : Sub (Node l le mde a b) t -> (a = None \/ b = None) -> (a <> None \/ b <> None) ->
      lvalue cfg cl = lvalue cfg (c_empty_label cfg) -> cv = c_empty_node_hash cfg -> Origin cl cv t.

  Lemma Origin_up cl cv A t : Sub A t -> Origin cl cv A -> Origin cl cv t.
  Proof.
    intros HS [B HB H1 H2|l le mde a b HB H1 H2 H3 H4].
    - apply O_node with (A := B); auto. eapply Sub_trans; eauto.
    - apply O_empty with (l := l) (le := le) (mde := mde) (a := a) (b := b); auto. eapply Sub_trans; eauto.
  Qed.

  Lemma mstep_fold_label sibs cl cv s :
    fst (fold_right (mstep cfg) (cl, cv) (s :: sibs)) = sp_label s.
  Proof. simpl. destruct (fold_right (mstep cfg) (cl, cv) sibs). reflexivity. Qed.

  Lemma mstep_fold_D32 sibs cl cv : D32 cv -> D32 (snd (fold_right (mstep cfg) (cl, cv) sibs)).
  Proof.
    intros H. induction sibs as [|s sibs IH]; simpl; auto.
    destruct (fold_right (mstep cfg) (cl, cv) sibs) as [l v]. simpl. destruct (sp_dir s); apply parent_D32.
  Qed.

  Lemma mstep_fold_LW sibs cl cv : LW cl -> Forall sib_ok sibs -> LW (fst (fold_right (mstep cfg) (cl, cv) sibs)).
  Proof.
    intros H Hs. destruct sibs as [|s sibs]; [exact H|]. rewrite mstep_fold_label.
    apply Forall_inv in Hs. destruct Hs as (_ & _ & Hs). exact Hs.
  Qed.

  Lemma classic_children (a b : option tree) : (a <> None \/ b <> None) \/ (a = None /\ b = None).
  Proof. destruct a, b; [left; left; discriminate|left; left; discriminate|left; right; discriminate|right; auto]. Qed.

  Lemma mstep_parent s l v : sib_ok s -> D32 v -> LW l ->
    exists a la b lb, D32 a /\ LW la /\ D32 b /\ LW lb /\
      snd (mstep cfg s (l, v)) = c_parent_hash cfg a (lvalue cfg la) b (lvalue cfg lb) /\
      (if sp_dir s then b = v /\ lb = l else a = v /\ la = l).
  Proof.
    intros (S1 & S2 & _) Hv Hl. cbn [mstep snd]. destruct (sp_dir s).
    - exists (sp_sib_val s), (sp_sib_label s), v, l. auto 10.
    - exists v, l, (sp_sib_val s), (sp_sib_label s). auto 10.
  Qed.

  Lemma mstep_slot s l v t : sib_ok s -> D32 v -> LW l -> tree_ok t ->
    snd (mstep cfg s (l, v)) = node_value cfg true t ->
    (exists tl le mde a b, t = Node tl le mde a b /\ (a <> None \/ b <> None) /\
       v = slot_value cfg (child t (sp_dir s)) /\ lvalue cfg l = lvalue cfg (slot_label cfg (child t (sp_dir s)))) \/ Bad.
  Proof.
    intros Hs Hv Hl Hok E. destruct (mstep_parent s l v Hs Hv Hl) as (x & lx & y & ly & Dx & Lx & Dy & Ly & Ep & Hside).
    rewrite Ep in E. clear Ep. destruct t as [tl c e|tl le mde a b].
    - right. simpl in Hok. symmetry in E. exact (leaf_not_parent _ _ _ _ _ _ (proj2 Hok) Dx Dy Lx Ly E).
    - destruct (classic_children a b) as [Hne|[-> ->]].
      2:{ right. symmetry in E. exact (empty_root_not_parent _ _ _ _ Dx Dy Lx Ly E). }
      change (node_value cfg true (Node tl le mde a b)) with (hashval cfg true (Node tl le mde a b)) in E.
      rewrite hashval_node in E by exact Hne.
      pose proof (tree_ok_child _ false Hok) as Ha. pose proof (tree_ok_child _ true Hok) as Hb. cbn [child] in Ha, Hb.
      apply parent_inj in E; auto using slot_value_D32, slot_label_LW.
      destruct E as [(E1 & E2 & E3 & E4)|]; [left|now right].
      exists tl, le, mde, a, b. split; [reflexivity|]. split; [exact Hne|].
      cbn [child]. destruct (sp_dir s); destruct Hside as [-> ->]; auto.
  Qed.

  Lemma chain_sound sibs : forall t cl cv,
    tree_ok t -> Forall sib_ok sibs -> D32 cv -> LW cl ->
    snd (fold_right (mstep cfg) (cl, cv) sibs) = node_value cfg true t ->
    (sibs = [] /\ cv = node_value cfg true t) \/
    (sibs <> [] /\ Origin cl cv t) \/
    Bad.
  Proof.
    induction sibs as [|s rest IH]; intros t cl cv Hok Hs Hcv Hcl Hv; [left; auto|]. right.
    apply Forall_cons_iff in Hs. destruct Hs as [Hs1 Hs2].
    pose proof (mstep_fold_D32 rest cl cv Hcv) as Hv32. pose proof (mstep_fold_LW rest cl cv Hcl Hs2) as HlW.
    cbn [fold_right] in Hv. destruct (fold_right (mstep cfg) (cl, cv) rest) as [l v] eqn:E. cbn [fst snd] in Hv32, HlW.
    destruct (mstep_slot s l v t Hs1 Hv32 HlW Hok Hv) as [(tl & le & mde & a & b & -> & Hne & Ev & El)|]; [|now right].
    pose proof (tree_ok_child _ (sp_dir s) Hok) as Hc.
    destruct (child (Node tl le mde a b) (sp_dir s)) as [c|] eqn:Ec; cbn [slot_value slot_label otree_ok] in Ev, El, Hc.
    - (* the path continues into the child c *)
      specialize (IH c cl cv Hc Hs2 Hcv Hcl). rewrite E in IH. specialize (IH Ev).
      destruct IH as [(Hr & Hcv')|[(Hr & Ho)|]]; [| |now right]; left; (split; [discriminate|]).
      + subst rest. injection E as <- <-. apply O_node with (A := c); [eapply Sub_child; eauto using Sub | exact El | exact Hcv'].
      + apply Origin_up with (A := c); [eapply Sub_child; eauto using Sub | exact Ho].
    - (* the path ends in an empty slot: the chain must end here as well *)
      destruct rest as [|s' rest'].
      + injection E as <- <-. left. split; [discriminate|].
        eapply O_empty; [apply Sub_refl | | exact Hne | exact El | exact Ev].
        cbn [child] in Ec. destruct (sp_dir s); auto.
      + right. apply Forall_cons_iff in Hs2. destruct Hs2 as [Hs' Hs2].
        cbn [fold_right] in E. destruct (fold_right (mstep cfg) (cl, cv) rest') as [l' v'] eqn:E'.
        pose proof (mstep_fold_D32 rest' cl cv Hcv) as Hv'. pose proof (mstep_fold_LW rest' cl cv Hcl Hs2) as Hl'. rewrite E' in Hv', Hl'.
        destruct (mstep_parent s' l' v' Hs' Hv' Hl') as (x & lx & y & ly & Dx & Lx & Dy & Ly & Ep & _).
        rewrite E in Ep. cbn [snd] in Ep. rewrite Ev in Ep. exact (empty_node_not_parent _ _ _ _ Dx Dy Lx Ly Ep).
  Qed.

  Hypothesis empty_label_not_canonical : canonical (c_empty_label cfg) = false.

  Definition mp_ok (mp : membership_proof) : Prop :=
    LW (mp_label mp) /\ D32 (mp_hash_val mp) /\ Forall sib_ok (mp_sibs mp).

  Theorem mem_sound t mp :
    tree_ok t -> tlabel t = nl_root -> is_leaf t = false -> mp_ok mp ->
    verify_membership cfg (root_hash cfg true t) mp = true ->
    Origin (mp_label mp) (mp_hash_val mp) t \/ Bad.
  Proof using parent_inj leaf_not_parent root_inj empty_root_not_parent empty_node_not_parent
              parent_D32 leaf_D32 empty_root_D32 empty_node_D32 empty_label_LW.
    intros Hok Hroot Hleaf (M1 & M2 & M3) Hv. unfold verify_membership in Hv.
    apply andb_true_iff in Hv. destruct Hv as [Hsib Hv]. apply bytes_eqb_eq in Hv.
    assert (Hnv : hashval cfg true t = node_value cfg true t) by (destruct t; [discriminate|reflexivity]).
    unfold root_hash in Hv. rewrite Hnv in Hv.
    apply root_inj in Hv; [|apply mstep_fold_D32; exact M2|now apply node_value_D32].
    destruct Hv as [Hv|]; [|now right]. unfold mfold in Hv.
    apply chain_sound in Hv; auto.
    destruct Hv as [(Hs & Hc)|[(Hs & Ho)|]]; [|now left|now right].
    left. rewrite Hs in Hsib. apply nl_eqb_eq in Hsib.
    apply O_node with (A := t); [apply Sub_refl|rewrite Hsib, Hroot; reflexivity|exact Hc].
  Qed.

  Definition nmp_ok (p : nonmembership_proof) : Prop :=
    LW (np_label p) /\ LW (np_longest_prefix p) /\
    LW (fst (np_child0 p)) /\ D32 (snd (np_child0 p)) /\
    LW (fst (np_child1 p)) /\ D32 (snd (np_child1 p)) /\ mp_ok (np_mp p).

  (* a child that the proof presents under its real label, and that passed the prefix check (fix F1),
     holds no leaf with the queried label *)
  Lemma child_blocked x c lc y :
    wfg c = true -> WF x -> tlabel c = lc ->
    negb (nl_eqb lc (c_empty_label cfg)) && is_prefix_of lc x = false ->
    In y (leaves c) -> lf_label y = x -> False.
  Proof.
    intros Hw Wx <- Hchk Hy <-. destruct (wfg_label _ Hw) as [Wc Cc].
    pose proof (leaves_prefix c Hw y Hy) as Hp. rewrite <- is_prefix_of_spec in Hp by assumption.
    rewrite Hp, andb_true_r in Hchk. apply negb_false_iff, nl_eqb_eq in Hchk. congruence.
  Qed.

  Theorem nonmem_sound t p :
    tree_ok t -> wf_root t = true -> nmp_ok p -> WF (np_label p) ->
    verify_nonmembership cfg (root_hash cfg true t) p = true ->
    ~ In (np_label p) (map lf_label (leaves t)) \/ Bad.
  Proof using parent_inj lvalue_inj leaf_not_parent root_inj empty_root_not_parent empty_node_not_parent
              leaf_not_empty_root parent_D32 leaf_D32 empty_root_D32 empty_node_D32 empty_label_LW
              empty_label_not_root empty_label_not_canonical.
    intros Hok Hwf (P1 & P2 & P3 & P4 & P5 & P6 & P7) Hx Hv.
    unfold verify_nonmembership, verify_nonmembership_gen in Hv.
    destruct (np_child0 p) as [l0 v0] eqn:E0. destruct (np_child1 p) as [l1 v1] eqn:E1.
    cbn [fst snd] in *. set (x := np_label p) in *. set (lp := np_longest_prefix p) in *.
    destruct (nl_eqb x l0 || nl_eqb x l1) eqn:C1; [discriminate|].
    destruct (is_prefix_of lp x) eqn:C2; [|discriminate]. cbn [negb andb] in Hv.
    match type of Hv with (if ?c then false else _) = true => destruct c eqn:C3; [discriminate|] end.
    set (lcp0 := get_longest_common_prefix (c_empty_label cfg) l0 l1) in *.
    set (lcpc := if nl_eqb lcp0 (c_empty_label cfg) then nl_root else lcp0) in *.
    destruct (nl_eqb lp lcpc) eqn:C4; [|discriminate]. cbn [negb] in Hv.
    destruct (nl_eqb lcpc (mp_label (np_mp p))) eqn:C5; [|discriminate]. cbn [negb orb] in Hv.
    match type of Hv with (if negb (bytes_eqb ?h _) then false else _) = true => set (lcp_hash := h) in * end.
    destruct (bytes_eqb lcp_hash (mp_hash_val (np_mp p))) eqn:C6; [|discriminate]. cbn [negb] in Hv.
    apply nl_eqb_eq in C4, C5. apply bytes_eqb_eq in C6. apply orb_false_iff in C3. destruct C3 as [C3a C3b].
    assert (Hwg : wfg t = true) by now apply wf_root_wfg.
    destruct (proj1 (wf_root_slots t) Hwf) as (le & mde & ra & rb & Et & _).
    apply mem_sound in Hv; [|assumption|rewrite Et; reflexivity|rewrite Et; reflexivity|assumption].
    destruct Hv as [Ho|]; [|now right].
    destruct P7 as (M1 & M2 & M3).
    destruct Ho as [A HA HlA HvA|l le' mde' a b HS H1 H2 HlE HvE].
    2:{ (* an empty slot cannot be the anchor: its label is the empty label, the anchor's is not *)
      apply lvalue_inj in HlE; auto. destruct HlE as [HlE|]; [|now right]. exfalso.
      rewrite <- C5 in HlE. unfold lcpc in HlE. destruct (nl_eqb lcp0 (c_empty_label cfg)) eqn:C7.
      - apply empty_label_not_root. congruence.
      - rewrite HlE, nl_eqb_refl in C7. discriminate. }
    pose proof (Sub_ok A t HA Hok) as HokA. pose proof (Sub_wfg A t HA Hwg) as HwA.
    apply lvalue_inj in HlA; auto using tree_ok_label. destruct HlA as [HlA|]; [|now right].
    assert (HlpA : lp = tlabel A) by congruence.
    (* every leaf with the queried label lies below the anchor *)
    assert (Hbelow : forall y, In y (leaves t) -> lf_label y = x -> In y (leaves A)).
    { intros y Hy Ey. apply (Sub_leaves A t HA Hwg y Hy). rewrite Ey, <- HlpA.
      rewrite <- is_prefix_of_spec; [exact C2 | rewrite HlpA; apply (wfg_label _ HwA) | exact Hx]. }
    rewrite <- C6 in HvA.
    destruct A as [la ca ea|la lea mdea a b].
    - (* a leaf cannot be the anchor *)
      right. simpl in HvA, HokA. destruct HokA as [_ Hca]. unfold lcp_hash in HvA.
      match type of HvA with (if ?c then _ else _) = _ => destruct c end.
      + symmetry in HvA. now apply leaf_not_empty_root in HvA.
      + symmetry in HvA. now apply leaf_not_parent in HvA.
    - pose proof (tree_ok_child _ false HokA) as Hoa. pose proof (tree_ok_child _ true HokA) as Hob. cbn [child] in Hoa, Hob.
      destruct (classic_children a b) as [Hne|[-> ->]].
      2:{ (* the empty root: there are no leaves at all below the anchor *)
        left. intros Hin. apply in_map_iff in Hin. destruct Hin as (y & Hy1 & Hy2). exact (Hbelow y Hy2 Hy1). }
      change (node_value cfg true (Node la lea mdea a b)) with (hashval cfg true (Node la lea mdea a b)) in HvA.
      rewrite hashval_node in HvA by exact Hne. unfold lcp_hash in HvA.
      match type of HvA with (if ?c then _ else _) = _ => destruct c end.
      + right. eapply empty_root_not_parent; [| | | |exact HvA]; auto using slot_value_D32, slot_label_LW.
      + apply parent_inj in HvA; auto using slot_value_D32, slot_label_LW.
        destruct HvA as [(_ & Hl0 & _ & Hl1)|]; [|now right].
        apply lvalue_inj in Hl0; auto using slot_label_LW. destruct Hl0 as [Hl0|]; [|now right].
        apply lvalue_inj in Hl1; auto using slot_label_LW. destruct Hl1 as [Hl1|]; [|now right].
        (* the proof's children are the anchor's: a leaf below either would have failed the prefix check *)
        left. intros Hin. apply in_map_iff in Hin. destruct Hin as (y & Hy1 & Hy2).
        destruct (leaves_node_in _ y (Hbelow y Hy2 Hy1) eq_refl) as (dir & c & Hc & Hyc).
        destruct (wfg_child' _ dir c HwA Hc) as [_ Hwc].
        destruct dir; cbn [child] in Hc; rewrite Hc in *; cbn [slot_label] in Hl0, Hl1.
        * exact (child_blocked x c l1 y Hwc Hx (eq_sym Hl1) C3b Hyc Hy1).
        * exact (child_blocked x c l0 y Hwc Hx (eq_sym Hl0) C3a Hyc Hy1).
  Qed.
End Sound.
