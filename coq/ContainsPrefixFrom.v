(* C17, `contains_prefix` on the set `AzksElementSet::from` builds (what the preloading asks):
   whatever representation `from` chooses - sorted when all labels have one length, unsorted
   otherwise - the answer is "some given element's label extends the prefix". *)
From Coq Require Import List Bool Arith NArith Lia Permutation.
From Akd Require Import Bits NodeLabel NodeLabelFacts ElemSet ElemSetFacts ContainsPrefix InsertRefine
  ContainsPrefixSorted.
Import ListNotations.

Theorem contains_prefix_of_from p elems :
  WF p -> canonical p = true -> elabs_ok elems -> NoDup (map e_label elems) ->
  (forall x, In x elems -> (llen p <= llen (e_label x))%N) ->
  eset_contains_prefix (eset_from elems) p = existsb (extends p) elems.
Proof.
  intros Hp Cp Hok Hnd Hlen.
  destruct elems as [|x0 r0] eqn:E; [reflexivity|]. rewrite <- E in *.
  assert (Hne : elems <> []) by (rewrite E; discriminate).
  destruct (eset_from_good elems Hne Hok Hnd) as [Hg HP].
  assert (Hok' : elabs_ok (eset_list (eset_from elems))).
  { intros y Hy. apply Hok. eapply Permutation_in; [exact HP | exact Hy]. }
  assert (Hlen' : forall y, In y (eset_list (eset_from elems)) -> (llen p <= llen (e_label y))%N).
  { intros y Hy. apply Hlen. eapply Permutation_in; [exact HP | exact Hy]. }
  rewrite <- (existsb_perm (extends p) _ _ HP).
  destruct (eset_from elems) as [l|l] eqn:Es; cbn [eset_list good_set] in *.
  - destruct Hg as [Hs Hsl].
    rewrite (contains_prefix_sorted_eq_unsorted p l Hp Cp Hok' Hs Hsl Hlen').
    apply contains_prefix_unsorted; [exact Hp | intros y Hy; apply (Hok' y Hy)].
  - apply contains_prefix_unsorted; [exact Hp | intros y Hy; apply (Hok' y Hy)].
Qed.
