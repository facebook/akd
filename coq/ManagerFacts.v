(* Facts about the storage-manager model: the cache is a partial copy of the database under every
   operation, rejected write and eviction (C16); reads inside a transaction answer from
   "database overridden by the log" exactly as after commit (C15); rollback/commit/begin (C15);
   nothing reaches the database while a transaction is open (C10); outside a transaction a tombstone
   rewrites the value fields that are due and nothing else (C20). *)
From Coq Require Import List Bool Arith NArith Lia.
From Akd Require Import ListFacts Manager.
Import ListNotations.
Open Scope N_scope.

Lemma key_eqb_eq a b : key_eqb a b = true <-> a = b.
Proof.
  destruct a, b; simpl; split; intros H; try discriminate; try reflexivity.
  - apply N.eqb_eq in H. congruence.
  - inversion H. apply N.eqb_refl.
  - apply andb_true_iff in H. destruct H as [H1 H2]. apply N.eqb_eq in H1, H2. congruence.
  - inversion H. now rewrite !N.eqb_refl.
Qed.
Lemma key_eqb_neq a b : key_eqb a b = false <-> a <> b.
Proof. rewrite <- key_eqb_eq. destruct (key_eqb a b); split; congruence. Qed.

Lemma key_eqb_spec a b : reflect (a = b) (key_eqb a b).
Proof. apply iff_reflect. symmetry. apply key_eqb_eq. Qed.

Lemma kget_kput m k r k' : kget (kput m k r) k' = if key_eqb k' k then Some r else kget m k'.
Proof.
  induction m as [|[k0 r0] m IH]; simpl; [reflexivity|].
  destruct (key_eqb_spec k k0) as [->|N]; simpl; [destruct (key_eqb k' k0); reflexivity|].
  rewrite IH. destruct (key_eqb_spec k' k0) as [->|]; [|reflexivity].
  destruct (key_eqb_spec k0 k) as [->|]; [now contradiction N | reflexivity].
Qed.

Lemma kget_kremove m k k' : kget (kremove m k) k' = if key_eqb k k' then None else kget m k'.
Proof.
  unfold kremove. induction m as [|[k0 r0] m IH]; simpl; [now destruct (key_eqb k k')|].
  destruct (key_eqb_spec k k0) as [<-|N]; simpl; rewrite IH.
  - destruct (key_eqb_spec k k') as [E|N]; [reflexivity|]. destruct (key_eqb_spec k' k) as [E|]; [now contradiction N | reflexivity].
  - destruct (key_eqb_spec k' k0) as [->|]; [|reflexivity]. destruct (key_eqb_spec k k0); [contradiction | reflexivity].
Qed.

Fixpoint kfind (rs : list record) (k : key) : option record :=
  match rs with
  | [] => None
  | r :: rest => match kfind rest k with
                 | Some x => Some x
                 | None => if key_eqb k (key_of r) then Some r else None
                 end
  end.

Lemma kfind_spec rs k :
  match kfind rs k with Some r => In r rs /\ key_of r = k | None => forall r, In r rs -> key_of r <> k end.
Proof.
  induction rs as [|r0 rs IH]; cbn [kfind]; [intros r []|].
  destruct (kfind rs k) as [x|]; [destruct IH; split; [now right | assumption]|].
  destruct (key_eqb_spec k (key_of r0)) as [->|N]; [split; [now left | reflexivity]|].
  intros r [<-|H]; [congruence | exact (IH r H)].
Qed.

Lemma kget_kput_all m rs k : kget (kput_all m rs) k = match kfind rs k with Some r => Some r | None => kget m k end.
Proof.
  unfold kput_all. revert m. induction rs as [|r rs IH]; intros m; cbn [fold_left kfind]; [reflexivity|].
  rewrite IH. destruct (kfind rs k); [reflexivity|]. unfold kput_rec. rewrite kget_kput.
  destruct (key_eqb k (key_of r)); reflexivity.
Qed.

Definition keyed (m : kmap) : Prop := forall k r, kget m k = Some r -> key_of r = k.
Definition nodupk (m : kmap) : Prop := NoDup (map fst m).

Lemma keyed_kput_rec m r : keyed m -> keyed (kput_rec m r).
Proof.
  intros H k r'. unfold kput_rec. rewrite kget_kput.
  destruct (key_eqb_spec k (key_of r)) as [->|]; [intros [= <-]; reflexivity | apply H].
Qed.
Lemma keyed_kput_all m rs : keyed m -> keyed (kput_all m rs).
Proof. exact (fold_left_inv keyed kput_rec keyed_kput_rec rs m). Qed.
Lemma keyed_nil : keyed [].
Proof. intros k r H. discriminate. Qed.

Lemma in_fst_kput m k r k' : In k' (map fst (kput m k r)) <-> k' = k \/ In k' (map fst m).
Proof.
  induction m as [|[k0 r0] m IH]; simpl; [intuition|].
  destruct (key_eqb_spec k k0) as [->|N]; simpl; [|rewrite IH]; intuition.
Qed.

Lemma nodupk_kput m k r : nodupk m -> nodupk (kput m k r).
Proof.
  unfold nodupk. induction m as [|[k0 r0] m IH]; simpl; intros H.
  - constructor; [intros []|constructor].
  - inversion H as [|? ? Hn Hd]; subst. destruct (key_eqb_spec k k0) as [->|N]; simpl.
    + constructor; assumption.
    + constructor; [|now apply IH]. rewrite in_fst_kput. intros [E|Hin]; [congruence | contradiction].
Qed.
Lemma nodupk_kput_all m rs : nodupk m -> nodupk (kput_all m rs).
Proof. exact (fold_left_inv nodupk kput_rec (fun m r => nodupk_kput m (key_of r) r) rs m). Qed.

Lemma kget_iff_In m k r : nodupk m -> (kget m k = Some r <-> In (k, r) m).
Proof.
  unfold nodupk. induction m as [|[k0 r0] m IH]; simpl; intros Hd; [split; [discriminate | intros []]|].
  inversion Hd as [|? ? Hn Hd']; subst. destruct (key_eqb_spec k k0) as [->|N].
  - split; [intros [= ->]; now left | intros [[= ->]|Hin]; [reflexivity|]]. destruct Hn. exact (in_map fst _ _ Hin).
  - rewrite (IH Hd'). split; [now right | intros [[= -> _]|H]; [now destruct N | exact H]].
Qed.

Lemma in_insert_by_epoch v w l : In w (insert_by_epoch v l) <-> w = v \/ In w l.
Proof.
  induction l as [|x l IH]; simpl; [intuition|]. destruct (vs_epoch v <=? vs_epoch x); simpl; [intuition|].
  rewrite IH. intuition.
Qed.
Lemma in_records m r : keyed m -> nodupk m -> (In r (map snd m) <-> kget m (key_of r) = Some r).
Proof.
  intros Hk Hd. rewrite in_map_iff. split.
  - intros ([k r'] & <- & H). apply (kget_iff_In m k r' Hd) in H. cbn [snd]. now rewrite (Hk _ _ H).
  - intros H. exists (key_of r, r). split; [reflexivity | now apply kget_iff_In].
Qed.

Lemma in_user_states m u v : In v (user_states m u) <-> In (RVal v) (map snd m) /\ vs_user v = u.
Proof.
  unfold user_states. induction m as [|[k r] m IH]; simpl; [tauto|].
  destruct r as [e n|l p|w]; simpl; [rewrite IH; intuition discriminate..|].
  destruct (N.eqb_spec (vs_user w) u) as [Hw|Hw]; rewrite ?in_insert_by_epoch, IH; intuition (subst; auto; congruence).
Qed.

Lemma in_user_states_kget m u v : keyed m -> nodupk m ->
  (In v (user_states m u) <-> kget m (KVal u (vs_epoch v)) = Some (RVal v) /\ vs_user v = u).
Proof. intros Hk Hd. rewrite in_user_states, (in_records m (RVal v) Hk Hd). simpl. split; intros [H <-]; auto. Qed.

Definition coherent (s : mstate) : Prop :=
  forall k r, cache_get (m_cache s) k = Some r -> kget (m_db s) k = Some r.

Definition Inv (s : mstate) : Prop :=
  coherent s /\ keyed (m_db s) /\ nodupk (m_db s) /\ keyed (m_mods s) /\ nodupk (m_mods s).

Lemma Inv_init c : Inv (init_state c).
Proof.
  unfold Inv, coherent, init_state. simpl. repeat split; try apply keyed_nil; try constructor.
  intros k r. destruct c; simpl; discriminate.
Qed.

(* [Inv] does not look at the transaction flag and the operation count.  An operation either leaves the
   database alone and keeps in the cache only what the database holds, or writes the same records to
   both; the log stays, is emptied, or takes records. *)
Lemma Inv_cache s c a o : Inv s -> (forall k r, cache_get c k = Some r -> kget (m_db s) k = Some r) ->
  Inv (MS (m_db s) c a (m_mods s) o).
Proof. intros (_ & I) H. split; [exact H | exact I]. Qed.

Lemma Inv_mods s a m o : Inv s -> keyed m -> nodupk m -> Inv (MS (m_db s) (m_cache s) a m o).
Proof. intros (C & K1 & N1 & _) K N. repeat split; assumption. Qed.

Lemma Inv_write s rs a o : Inv s -> Inv (MS (kput_all (m_db s) rs) (cache_put_all (m_cache s) rs) a (m_mods s) o).
Proof.
  intros (C & K1 & N1 & K2 & N2). repeat split; cbn [m_db m_cache m_mods]; auto using keyed_kput_all, nodupk_kput_all.
  intros k r. unfold coherent in C. cbn [m_db m_cache]. destruct (m_cache s) as [m|]; simpl; [|discriminate].
  rewrite !kget_kput_all. destruct (kfind rs k); [auto|]. apply (C k r).
Qed.

Lemma Inv_fill s rs a o : Inv s -> (forall r, In r rs -> exists k, kget (m_db s) k = Some r) ->
  Inv (MS (m_db s) (cache_put_all (m_cache s) rs) a (m_mods s) o).
Proof.
  intros HI Hr. apply Inv_cache; [exact HI|]. destruct HI as (C & K1 & _). unfold coherent in C.
  intros k r0. destruct (m_cache s) as [m|]; simpl; [|discriminate]. rewrite kget_kput_all.
  pose proof (kfind_spec rs k) as F. destruct (kfind rs k) as [r|]; [|apply (C k r0)].
  destruct F as [Hin <-]. intros [= <-]. destruct (Hr r Hin) as [k E]. now rewrite (K1 k r E).
Qed.

Lemma kget_fold_kremove ks : forall m k r, kget (fold_left kremove ks m) k = Some r -> kget m k = Some r.
Proof.
  induction ks as [|k0 ks IH]; intros m k r H; simpl in H; [exact H|].
  apply IH in H. rewrite kget_kremove in H. destruct (key_eqb k0 k); [discriminate|exact H].
Qed.

Theorem Inv_evict s ks : Inv s -> Inv (evict s ks).
Proof.
  intros HI. apply Inv_cache; [exact HI|]. destruct HI as (C & _). intros k r.
  destruct (m_cache s) as [m|] eqn:Ec; simpl; [|discriminate]. intros H. apply (C k r). rewrite Ec. simpl.
  eapply kget_fold_kremove. exact H.
Qed.

Theorem Inv_flush s : Inv s -> Inv (flush s).
Proof. intros HI. apply Inv_cache; [exact HI|]. intros k r. destruct (m_cache s); simpl; discriminate. Qed.

Theorem Inv_begin s : Inv s -> Inv (fst (begin_transaction s)).
Proof. intros H. exact H. Qed.

Lemma Inv_closed s o : Inv s -> Inv (MS (m_db s) (m_cache s) false [] o).
Proof. intros H. apply Inv_mods; [exact H | apply keyed_nil | constructor]. Qed.

Theorem Inv_rollback s : Inv s -> Inv (fst (rollback_transaction s)).
Proof. intros H. unfold rollback_transaction. destruct (m_active s); cbn [negb fst]; [apply Inv_closed|]; exact H. Qed.

Lemma commit_cases s f : m_active s = true ->
  let records := sort_by_priority (map snd (m_mods s)) in
  let s0 := MS (m_db s) (m_cache s) false [] (m_ops s) in
  (records = [] /\ commit_transaction s f = (s0, Ok 0)) \/
  (records <> [] /\ (forall e n, last records (RNode 0 0) <> RAzks e n) /\ commit_transaction s f = (s0, Err ETransaction)) \/
  (records <> [] /\ (exists e n, last records (RNode 0 0) = RAzks e n) /\
   commit_transaction s f =
   if f then (tick s0, Err EOther)
   else (MS (kput_all (m_db s) records) (cache_put_all (m_cache s) records) false [] (m_ops s + 1),
         Ok (N.of_nat (length records)))).
Proof.
  intros Ha records s0. unfold commit_transaction. rewrite Ha. cbn [negb]. fold records.
  destruct records as [|r0 rs] eqn:E; [left; auto|]. rewrite <- E. right.
  assert (Hne : records <> []) by (rewrite E; discriminate).
  destruct (last records (RNode 0 0)) as [e n| |]; [right; eauto | left | left]; repeat split; auto; discriminate.
Qed.

Theorem Inv_commit s f : Inv s -> Inv (fst (commit_transaction s f)).
Proof.
  intros H. destruct (m_active s) eqn:Ha; [|unfold commit_transaction; rewrite Ha; exact H].
  destruct (commit_cases s f Ha) as [[_ ->]|[(_ & _ & ->)|(_ & _ & ->)]]; try exact (Inv_closed s _ H).
  destruct f; cbn [fst]; [exact (Inv_closed s _ H)|].
  apply (Inv_mods (MS _ _ false (m_mods s) (m_ops s))); [apply Inv_write, H | apply keyed_nil | constructor].
Qed.

Theorem Inv_set s r f : Inv s -> Inv (fst (set_record s r f)).
Proof.
  intros H. unfold set_record. destruct (m_active s); cbn [fst].
  - pose proof H as (_ & _ & _ & K2 & N2). apply Inv_mods; [exact H | now apply keyed_kput_rec | now apply nodupk_kput].
  - destruct f; [exact H | exact (Inv_write s [r] _ _ H)].
Qed.

Theorem Inv_batch_set s rs f : Inv s -> Inv (fst (batch_set s rs f)).
Proof.
  intros H. unfold batch_set. destruct rs as [|r0 rs']; [exact H|]. destruct (m_active s); cbn [fst].
  - pose proof H as (_ & _ & _ & K2 & N2). apply Inv_mods; [exact H | now apply keyed_kput_all | now apply nodupk_kput_all].
  - destruct f; [exact H | apply Inv_write, H].
Qed.

Lemma Inv_committed_read s k f : Inv s -> Inv (fst (get_committed s k f)).
Proof.
  intros H. unfold get_committed. destruct (cache_get (m_cache s) k); [exact H|]. destruct f; [exact H|].
  destruct (kget (m_db s) k) as [r|] eqn:E; [|exact H]. apply (Inv_fill s [r]); [exact H|].
  intros r' [<-|[]]. eauto.
Qed.

Lemma get_record_committed s k f :
  get_record s k f = match (if m_active s then kget (m_mods s) k else None) with
                     | Some r => (s, Ok r)
                     | None => get_committed s k f
                     end.
Proof. reflexivity. Qed.

Theorem Inv_get s k f : Inv s -> Inv (fst (get_record s k f)).
Proof.
  intros H. rewrite get_record_committed. destruct (if m_active s then _ else _); [exact H | apply Inv_committed_read, H].
Qed.

Theorem Inv_batch_get s ks f : Inv s -> Inv (fst (batch_get s ks f)).
Proof.
  intros H. unfold batch_get. destruct ks as [|k0 ks']; [exact H|].
  destruct (filter _ (k0 :: ks')) as [|m0 ms]; [exact H|].
  destruct f; [exact H|]. apply Inv_fill; [exact H|]. intros r Hr. apply in_flat_map_opt in Hr.
  destruct Hr as (k & _ & E). eauto.
Qed.

Theorem Inv_tombstone s u e f1 f2 : Inv s -> Inv (fst (tombstone s u e f1 f2)).
Proof.
  intros H. unfold tombstone, get_user_data. cbv beta iota.
  destruct (if f1 then _ else _); [apply Inv_batch_set|]; exact H.
Qed.

Lemma get_committed_result s k : Inv s ->
  snd (get_committed s k false) = match kget (m_db s) k with Some r => Ok r | None => Err ENotFound end.
Proof.
  intros (C & _). unfold get_committed. destruct (cache_get (m_cache s) k) as [r|] eqn:E.
  - rewrite (C k r E). reflexivity.
  - destruct (kget (m_db s) k); reflexivity.
Qed.

(* C16: what a read returns does not depend on the cache: pending value if any, else the database *)
Theorem get_record_spec s k : Inv s ->
  snd (get_record s k false) =
  match (if m_active s then kget (m_mods s) k else None) with
  | Some r => Ok r
  | None => match kget (m_db s) k with Some r => Ok r | None => Err ENotFound end
  end.
Proof.
  intros HI. rewrite get_record_committed. destruct (if m_active s then _ else _); [reflexivity|].
  now apply get_committed_result.
Qed.

(* C16: after a flush the next read comes from the database *)
Lemma flush_then_get s k : m_active s = false ->
  snd (get_record (flush s) k false) = match kget (m_db s) k with Some r => Ok r | None => Err ENotFound end.
Proof.
  intros Ha. unfold get_record, flush. cbn [m_active m_mods m_cache m_db]. rewrite Ha.
  destruct (m_cache s); simpl; destruct (kget (m_db s) k); reflexivity.
Qed.

Definition merged (s : mstate) : kmap := kput_all (m_db s) (map snd (m_mods s)).

Lemma kget_kput_records m db l k : keyed m -> nodupk m -> (forall r, In r l <-> In r (map snd m)) ->
  kget (kput_all db l) k = match kget m k with Some r => Some r | None => kget db k end.
Proof.
  intros Hk Hd Hl. rewrite kget_kput_all. pose proof (kfind_spec l k) as F.
  assert (Hm : forall r, In r l <-> kget m (key_of r) = Some r) by (intros r; rewrite Hl; now apply in_records).
  destruct (kfind l k) as [r|].
  - destruct F as [Hin <-]. apply Hm in Hin. now rewrite Hin.
  - destruct (kget m k) as [r|] eqn:G; [|reflexivity]. pose proof (Hk _ _ G) as <-. apply Hm in G. destruct (F r G eq_refl).
Qed.

Lemma kget_merged s k : Inv s ->
  kget (merged s) k = match kget (m_mods s) k with Some r => Some r | None => kget (m_db s) k end.
Proof. intros (_ & _ & _ & K2 & N2). apply (kget_kput_records _ _ _ _ K2 N2). reflexivity. Qed.

(* C15: a single-record read inside a transaction is a read of the database as commit leaves it *)
Theorem txn_get_is_committed_get s k : Inv s -> m_active s = true ->
  snd (get_record s k false) = match kget (merged s) k with Some r => Ok r | None => Err ENotFound end.
Proof.
  intros HI Ha. rewrite get_record_spec by exact HI. rewrite Ha, kget_merged by exact HI.
  destruct (kget (m_mods s) k); reflexivity.
Qed.

Lemma in_sort_by_priority rs r : In r (sort_by_priority rs) <-> In r rs.
Proof.
  unfold sort_by_priority. rewrite in_app_iff, !filter_In. destruct (priority r =? 1); simpl; tauto.
Qed.

Lemma length_sort_by_priority rs : length (sort_by_priority rs) = length rs.
Proof.
  unfold sort_by_priority. rewrite app_length. induction rs as [|r rs IH]; simpl; [reflexivity|].
  destruct (priority r =? 1); simpl; lia.
Qed.

(* C15: commit hands the database the pending records (each once), the epoch record last, and the
   database then holds exactly "database overridden by the log" *)
Theorem commit_spec s : Inv s -> m_active s = true ->
  forall s' n, commit_transaction s false = (s', Ok n) ->
  let records := sort_by_priority (map snd (m_mods s)) in
  (forall k, kget (m_db s') k = kget (merged s) k) /\
  (records = [] \/ exists e num, last records (RNode 0 0) = RAzks e num) /\
  (forall r, In r records <-> In r (map snd (m_mods s))) /\ length records = length (m_mods s) /\
  m_active s' = false /\ m_mods s' = [].
Proof.
  intros HI Ha s' n Hc records. pose proof HI as (_ & _ & _ & K2 & N2).
  assert (Hrec : forall r, In r records <-> In r (map snd (m_mods s))) by (intros r; apply in_sort_by_priority).
  assert (Hlen : length records = length (m_mods s)) by (unfold records; now rewrite length_sort_by_priority, map_length).
  assert (Hdb : forall k, kget (kput_all (m_db s) records) k = kget (merged s) k).
  { intros k. rewrite kget_merged by exact HI. exact (kget_kput_records _ _ _ k K2 N2 Hrec). }
  destruct (commit_cases s false Ha) as [[E Hc']|[(_ & _ & Hc')|(_ & Hl & Hc')]]; rewrite Hc' in Hc; [|discriminate|];
    injection Hc as <- _; cbn [m_db m_active m_mods]; repeat split; auto; try apply Hrec.
  intros k. rewrite <- Hdb. unfold records. rewrite E. reflexivity.
Qed.

Theorem commit_without_epoch_record s : m_active s = true ->
  let records := sort_by_priority (map snd (m_mods s)) in
  records <> [] -> (forall e n, last records (RNode 0 0) <> RAzks e n) ->
  forall f, commit_transaction s f = (MS (m_db s) (m_cache s) false [] (m_ops s), Err ETransaction).
Proof.
  intros Ha records Hne Hl f.
  destruct (commit_cases s f Ha) as [[E _]|[(_ & _ & Hc)|(_ & (e & n & Hl') & _)]];
    [contradiction | exact Hc | destruct (Hl e n Hl')].
Qed.

Theorem rollback_spec s : m_active s = true ->
  rollback_transaction s = (MS (m_db s) (m_cache s) false [] (m_ops s), Ok tt).
Proof. intros Ha. unfold rollback_transaction. rewrite Ha. reflexivity. Qed.

Theorem begin_twice_refused s : m_active s = true -> snd (begin_transaction s) = false.
Proof. intros Ha. unfold begin_transaction. cbn [snd]. rewrite Ha. reflexivity. Qed.

Theorem commit_inactive_refused s f : m_active s = false -> commit_transaction s f = (s, Err ETransaction).
Proof. intros Ha. unfold commit_transaction. rewrite Ha. reflexivity. Qed.

Lemma failed_commit_closes s s' : m_active s = true ->
  s' = fst (commit_transaction s true) \/ (exists e, commit_transaction s false = (s', Err e)) ->
  m_db s' = m_db s /\ m_active s' = false /\ m_mods s' = [].
Proof.
  intros Ha [->|[e He]].
  - destruct (commit_cases s true Ha) as [[_ ->]|[(_ & _ & ->)|(_ & _ & ->)]]; auto.
  - destruct (commit_cases s false Ha) as [[_ Hc]|[(_ & _ & Hc)|(_ & _ & Hc)]]; rewrite Hc in He;
      [discriminate | injection He as <- _; auto | discriminate].
Qed.

(* C10 (storage side): while a transaction is open no operation changes the database *)
Theorem set_in_txn_keeps_db s r f : m_active s = true -> m_db (fst (set_record s r f)) = m_db s.
Proof. intros Ha. unfold set_record. rewrite Ha. reflexivity. Qed.
Theorem batch_set_in_txn_keeps_db s rs f : m_active s = true -> m_db (fst (batch_set s rs f)) = m_db s.
Proof. intros Ha. unfold batch_set. destruct rs; [reflexivity|]. rewrite Ha. reflexivity. Qed.
Lemma get_committed_frame s k f :
  m_db (fst (get_committed s k f)) = m_db s /\ m_mods (fst (get_committed s k f)) = m_mods s /\
  m_active (fst (get_committed s k f)) = m_active s.
Proof.
  unfold get_committed. destruct (cache_get _ _); [auto|]. destruct f; [auto|]. destruct (kget (m_db s) k); auto.
Qed.
Lemma get_record_frame s k f :
  m_db (fst (get_record s k f)) = m_db s /\ m_active (fst (get_record s k f)) = m_active s.
Proof.
  rewrite get_record_committed. destruct (if m_active s then _ else _); [auto|].
  destruct (get_committed_frame s k f) as (D & _ & A). auto.
Qed.
Theorem reads_keep_db s k f : m_db (fst (get_record s k f)) = m_db s.
Proof. apply get_record_frame. Qed.

(* what a retrieval flag selects from a set of states of one user *)
Definition sel (f : flag) (S : list vstate) (x : vstate) : Prop :=
  In x S /\
  match f with
  | SpecificVersion v => vs_version x = v
  | SpecificEpoch e => vs_epoch x = e
  | LeqEpoch e => vs_epoch x <= e /\ forall y, In y S -> vs_epoch y <= e -> vs_epoch y <= vs_epoch x
  | MaxEpoch => forall y, In y S -> vs_epoch y <= vs_epoch x
  | MinEpoch => forall y, In y S -> vs_epoch x <= vs_epoch y
  end.

Inductive sorted_e : list vstate -> Prop :=
| se_nil : sorted_e []
| se_cons x l : (forall y, In y l -> vs_epoch x <= vs_epoch y) -> sorted_e l -> sorted_e (x :: l).

Lemma sorted_insert v l : sorted_e l -> sorted_e (insert_by_epoch v l).
Proof.
  induction 1 as [|x l Hx Hs IH]; simpl.
  - constructor; [intros y []|constructor].
  - destruct (N.leb_spec (vs_epoch v) (vs_epoch x)).
    + constructor; [|now constructor]. intros y [<-|Hy]; [lia|]. specialize (Hx y Hy). lia.
    + constructor; [|exact IH]. intros y Hy. apply in_insert_by_epoch in Hy. destruct Hy as [->|Hy]; [lia|auto].
Qed.

Lemma sorted_user_states m u : sorted_e (user_states m u).
Proof.
  unfold user_states. induction m as [|[k r] m IH]; simpl; [constructor|].
  destruct r; auto. destruct (vs_user v =? u); auto using sorted_insert.
Qed.

Lemma sorted_filter p l : sorted_e l -> sorted_e (filter p l).
Proof.
  induction 1 as [|x l Hx Hs IH]; simpl; [constructor|]. destruct (p x); [|exact IH].
  constructor; [|exact IH]. intros y Hy. apply filter_In in Hy. apply Hx. tauto.
Qed.

(* [sel] in one shape for all five flags: eligible, and at least as good as every eligible state *)
Definition elig (f : flag) (x : vstate) : Prop :=
  match f with
  | SpecificVersion v => vs_version x = v
  | SpecificEpoch e => vs_epoch x = e
  | LeqEpoch e => vs_epoch x <= e
  | MaxEpoch | MinEpoch => True
  end.
Definition better (f : flag) (x y : vstate) : Prop :=
  match f with
  | LeqEpoch _ | MaxEpoch => vs_epoch y <= vs_epoch x
  | MinEpoch => vs_epoch x <= vs_epoch y
  | SpecificVersion _ | SpecificEpoch _ => True
  end.

Lemma sel_alt f S x : sel f S x <-> In x S /\ elig f x /\ forall y, In y S -> elig f y -> better f x y.
Proof. unfold sel. destruct f; cbn [elig better]; intuition auto. Qed.

Lemma better_trans f x y z : better f x y -> better f y z -> better f x z.
Proof. destruct f; cbn [better]; auto; lia. Qed.
Lemma elig_same f x y : vs_epoch x = vs_epoch y -> vs_version x = vs_version y -> elig f x -> elig f y.
Proof. intros E V. destruct f; cbn [elig]; rewrite <- ?E, <- ?V; auto. Qed.
Lemma better_same f x y y' : vs_epoch y' = vs_epoch y -> better f x y -> better f x y'.
Proof. intros E. destruct f; cbn [better]; rewrite ?E; auto. Qed.

Lemma compare_db_txn_spec f dv tv :
  (compare_db_txn (vs_epoch dv) tv f = Some tv /\ better f tv dv) \/
  (compare_db_txn (vs_epoch dv) tv f = None /\ better f dv tv /\ ~ better f tv dv).
Proof.
  destruct f; cbn [compare_db_txn better]; auto;
    match goal with |- context [N.leb ?a ?b] => destruct (N.leb_spec a b) end; [left | right | left | right | left | right];
    repeat split; auto; lia.
Qed.

Lemma last_opt_cons {A} (x : A) l : last_opt (x :: l) = match last_opt l with Some y => Some y | None => Some x end.
Proof. unfold last_opt. cbn [rev]. destruct (rev l); reflexivity. Qed.

Lemma last_opt_spec l : sorted_e l ->
  match last_opt l with Some x => In x l /\ forall y, In y l -> vs_epoch y <= vs_epoch x | None => l = [] end.
Proof.
  induction 1 as [|x l Hx Hs IH]; [reflexivity|]. rewrite last_opt_cons. destruct (last_opt l) as [z|].
  - destruct IH as [Hz Hm]. split; [now right|]. intros y [<-|Hy]; [apply Hx, Hz | apply Hm, Hy].
  - subst l. split; [now left|]. intros y [<-|[]]. lia.
Qed.

Lemma find_item_spec l f : sorted_e l ->
  match find_item l f with Some x => sel f l x | None => forall y, In y l -> ~ elig f y end.
Proof.
  intros Hs. destruct f as [v|e|e| |]; cbn [find_item elig].
  1, 2: destruct (find _ l) as [x|] eqn:H;
    [apply find_some in H; destruct H as [H1 H2]; apply N.eqb_eq in H2; split; assumption
    | intros y Hy; apply N.eqb_neq; exact (find_none _ _ H y Hy)].
  - pose proof (last_opt_spec _ (sorted_filter (fun s => vs_epoch s <=? e) l Hs)) as H.
    destruct (last_opt _) as [x|].
    + destruct H as [H1 H2]. apply filter_In in H1. destruct H1 as [H1 H3]. apply N.leb_le in H3.
      split; [exact H1|]. split; [exact H3|]. intros y Hy Hye. apply H2, filter_In. split; [exact Hy | now apply N.leb_le].
    + intros y Hy Ey. apply N.leb_le in Ey. assert (Hf : In y (filter (fun s => vs_epoch s <=? e) l)) by (apply filter_In; auto).
      rewrite H in Hf. destruct Hf.
  - pose proof (last_opt_spec l Hs) as H. destruct (last_opt l); [exact H | subst l; intros y []].
  - destruct Hs as [|a t Ha _]; cbn [hd_error]; [intros y []|]. split; [now left|]. intros y [<-|Hy]; [lia | auto].
Qed.

Lemma user_state_in m u f x : find_item (user_states m u) f = Some x -> In x (user_states m u).
Proof. intros E. pose proof (find_item_spec _ f (sorted_user_states m u)) as S. rewrite E in S. apply S. Qed.

Lemma merged_states s u v : Inv s ->
  (In v (user_states (merged s) u) <->
   In v (user_states (m_mods s) u) \/
   (In v (user_states (m_db s) u) /\ forall m, In m (user_states (m_mods s) u) -> vs_epoch m <> vs_epoch v)).
Proof.
  intros HI. pose proof HI as (_ & K1 & N1 & K2 & N2).
  assert (Km : keyed (merged s)) by (unfold merged; now apply keyed_kput_all).
  assert (Nm : nodupk (merged s)) by (unfold merged; now apply nodupk_kput_all).
  rewrite !in_user_states_kget by assumption. rewrite kget_merged by exact HI. split.
  - intros [Hg Hu]. destruct (kget (m_mods s) (KVal u (vs_epoch v))) as [r|] eqn:G.
    + left. split; [congruence|exact Hu].
    + right. split; [split; assumption|]. intros m Hm Hne. apply in_user_states_kget in Hm; auto.
      destruct Hm as [Hm _]. rewrite Hne in Hm. congruence.
  - intros [[Hg Hu]|[[Hg Hu] Hno]].
    + rewrite Hg. auto.
    + split; [|exact Hu]. destruct (kget (m_mods s) (KVal u (vs_epoch v))) as [r|] eqn:G; [|exact Hg].
      exfalso. pose proof (K2 _ _ G) as Hk. destruct r as [? ?|? ?|w]; simpl in Hk; try discriminate.
      injection Hk as Hu' He'. apply (Hno w); [|exact He'].
      apply in_user_states_kget; auto. rewrite He'. auto.
Qed.

(* rewriting an existing (user, epoch) record keeps its version (what tombstoning does) *)
Definition rewrite_keeps_version (s : mstate) (u : N) : Prop :=
  forall m d, In m (user_states (m_mods s) u) -> In d (user_states (m_db s) u) ->
              vs_epoch m = vs_epoch d -> vs_version m = vs_version d.

(* Inside a transaction the better of the log's and the database's answers is the answer on the committed
   states: the pending ones, and the stored ones not hidden by a pending state of their epoch.  For the stored
   answer to be it, a pending state of the epoch of an eligible stored state must be eligible too. *)
Lemma txn_user_state_spec s u f : Inv s -> m_active s = true ->
  match snd (get_user_state s u f false) with
  | Ok x => rewrite_keeps_version s u -> sel f (user_states (merged s) u) x
  | Err ENotFound => forall y, In y (user_states (merged s) u) -> ~ elig f y
  | Err _ => True
  end.
Proof.
  intros HI Ha. unfold get_user_state. rewrite Ha. unfold db_user_state.
  set (D := user_states (m_db s) u). set (M := user_states (m_mods s) u). set (U := user_states (merged s) u).
  assert (HU : forall v, In v U <-> In v M \/ (In v D /\ forall m, In m M -> vs_epoch m <> vs_epoch v)) by (intros v; now apply merged_states).
  assert (best : forall x, In x U -> elig f x -> (forall y, In y M -> elig f y -> better f x y) ->
                           (forall y, In y D -> elig f y -> better f x y) -> sel f U x).
  { intros x Hx Ex BM BD. apply sel_alt. split; [exact Hx|]. split; [exact Ex|].
    intros y Hy. apply HU in Hy. destruct Hy as [Hy|[Hy _]]; auto. }
  assert (Hsame : rewrite_keeps_version s u -> forall m d, In m M -> In d D -> vs_epoch m = vs_epoch d -> elig f d -> elig f m).
  { intros Hrw m d Hm Hd E. apply elig_same; [now symmetry | symmetry; exact (Hrw m d Hm Hd E)]. }
  pose proof (find_item_spec M f (sorted_user_states _ u)) as ET. pose proof (find_item_spec D f (sorted_user_states _ u)) as ED.
  destruct (find_item M f) as [tv|]; [apply sel_alt in ET; destruct ET as (TM & TE & TB)|];
    (destruct (find_item D f) as [dv|]; [apply sel_alt in ED; destruct ED as (DM & DE & DB)|]).
  - destruct (compare_db_txn_spec f dv tv) as [[-> Hb]|(-> & Hb & Hnb)]; cbn [snd]; intros Hrw; apply best; auto.
    + apply HU. now left.
    + intros y Hy Ey. exact (better_trans f _ _ _ Hb (DB y Hy Ey)).
    + (* the stored state wins: no pending state hides it *)
      apply HU. right. split; [exact DM|]. intros m Hm E. apply Hnb.
      apply (better_same f tv m dv (eq_sym E)). exact (TB m Hm (Hsame Hrw m dv Hm DM E DE)).
    + intros y Hy Ey. exact (better_trans f _ _ _ Hb (TB y Hy Ey)).
  - cbn [snd]. intros _. apply best; auto; [apply HU; now left | intros y Hy Ey; destruct (ED y Hy Ey)].
  - cbn [snd]. intros Hrw. apply best; auto; [|intros y Hy Ey; destruct (ET y Hy Ey)].
    apply HU. right. split; [exact DM|]. intros m Hm E. exact (ET m Hm (Hsame Hrw m dv Hm DM E DE)).
  - cbn [snd]. intros y Hy. apply HU in Hy. destruct Hy as [Hy|[Hy _]]; auto.
Qed.

(* C15: a user-state query inside a transaction selects from the committed state set *)
Theorem txn_user_state_sound s u f x : Inv s -> m_active s = true -> rewrite_keeps_version s u ->
  snd (get_user_state s u f false) = Ok x -> sel f (user_states (merged s) u) x.
Proof. intros HI Ha Hrw E. pose proof (txn_user_state_spec s u f HI Ha) as P. rewrite E in P. exact (P Hrw). Qed.

(* ... and answers NotFound only when the committed set has nothing to select *)
Theorem txn_user_state_notfound s u f : Inv s -> m_active s = true ->
  snd (get_user_state s u f false) = Err ENotFound -> forall x, ~ sel f (user_states (merged s) u) x.
Proof.
  intros HI Ha E x Hx. pose proof (txn_user_state_spec s u f HI Ha) as P. rewrite E in P.
  apply sel_alt in Hx. destruct Hx as (Hin & Ex & _). exact (P x Hin Ex).
Qed.

Lemma in_override dbl modl v :
  In v (override dbl modl) <-> In v modl \/ (In v dbl /\ forall m, In m modl -> vs_epoch m <> vs_epoch v).
Proof.
  unfold override. rewrite in_app_iff, filter_In, negb_true_iff.
  assert (H : existsb (fun m => vs_epoch m =? vs_epoch v) modl = false <-> forall m, In m modl -> vs_epoch m <> vs_epoch v).
  { split.
    - intros E m Hm. apply N.eqb_neq. exact (existsb_false_In _ _ E m Hm).
    - intros Hn. destruct (existsb _ modl) eqn:E; [|reflexivity]. apply existsb_exists in E. destruct E as (m & Hm & He).
      apply N.eqb_eq in He. destruct (Hn m Hm He). }
  rewrite H. tauto.
Qed.

(* C15: get_user_data inside a transaction lists exactly the committed states of the user *)
Theorem txn_user_data s u : Inv s -> m_active s = true ->
  exists l, snd (get_user_data s u false) = Ok l /\ forall v, In v l <-> In v (user_states (merged s) u).
Proof.
  intros HI Ha. unfold get_user_data. rewrite Ha. cbn [snd]. eexists. split; [reflexivity|].
  intros v. rewrite merged_states by exact HI. apply in_override.
Qed.

Theorem Inv_get_user_state s u fl f : Inv s -> Inv (fst (get_user_state s u fl f)).
Proof.
  intros H. unfold get_user_state. destruct f; [exact H|].
  destruct (if m_active s then _ else None); [exact H|].
  destruct (db_user_state (m_db s) u fl) as [st|] eqn:E; [|exact H].
  apply (Inv_fill s [RVal st]); [exact H|]. intros r' [<-|[]]. destruct H as (_ & K1 & N1 & _).
  apply user_state_in, in_user_states_kget in E; auto. destruct E as [Hg _]. eauto.
Qed.

Theorem Inv_steps s : Inv s ->
  (forall ks, Inv (evict s ks)) /\ Inv (flush s) /\ Inv (fst (begin_transaction s)) /\
  (forall f, Inv (fst (commit_transaction s f))) /\ Inv (fst (rollback_transaction s)) /\
  (forall r f, Inv (fst (set_record s r f))) /\ (forall rs f, Inv (fst (batch_set s rs f))) /\
  (forall k f, Inv (fst (get_record s k f))) /\ (forall ks f, Inv (fst (batch_get s ks f))) /\
  (forall u fl f, Inv (fst (get_user_state s u fl f))) /\ (forall u f, Inv (fst (get_user_data s u f))) /\
  (forall us fl f, Inv (fst (get_user_state_versions s us fl f))) /\
  (forall u e f1 f2, Inv (fst (tombstone s u e f1 f2))).
Proof.
  (* begin_transaction, get_user_data and get_user_state_versions change only the flag and the count *)
  intros H. do 12 (split; [intros; try exact H; auto using Inv_evict, Inv_flush, Inv_commit, Inv_rollback, Inv_set, Inv_batch_set,
    Inv_get, Inv_batch_get, Inv_get_user_state|]). intros. apply Inv_tombstone, H.
Qed.

(* the operations a publish performs between begin_transaction and commit / rollback, with the
   environment's choice for every database call *)
Inductive txn_op :=
| OSet (r : record) (f : bool)
| OBatchSet (rs : list record) (f : bool)
| OGet (k : key) (f : bool)
| OBatchGet (ks : list key) (f : bool)
| OUserState (u : N) (fl : flag) (f : bool)
| OUserData (u : N) (f : bool)
| OUserVersions (us : list N) (fl : flag) (f : bool)
| OEvict (ks : list key).

Definition run_op (s : mstate) (o : txn_op) : mstate :=
  match o with
  | OSet r f => fst (set_record s r f)
  | OBatchSet rs f => fst (batch_set s rs f)
  | OGet k f => fst (get_record s k f)
  | OBatchGet ks f => fst (batch_get s ks f)
  | OUserState u fl f => fst (get_user_state s u fl f)
  | OUserData u f => fst (get_user_data s u f)
  | OUserVersions us fl f => fst (get_user_state_versions s us fl f)
  | OEvict ks => evict s ks
  end.

Lemma run_op_in_txn s o : m_active s = true -> m_db (run_op s o) = m_db s /\ m_active (run_op s o) = true.
Proof.
  intros Ha. destruct o; simpl; auto.
  - unfold set_record. rewrite Ha. auto.
  - unfold batch_set. destruct rs; [auto|]. rewrite Ha. auto.
  - rewrite <- Ha. apply get_record_frame.
  - unfold batch_get. destruct ks as [|k0 ks']; [auto|]. destruct (filter _ (k0 :: ks')); [auto|].
    destruct f; auto.
  - unfold get_user_state. destruct f; [auto|].
    destruct (if m_active s then _ else None); [auto|].
    destruct (db_user_state _ _ _); auto.
Qed.

Lemma run_op_Inv s o : Inv s -> Inv (run_op s o).
Proof.
  intros H. destruct o; cbn [run_op]; try exact H; auto using Inv_set, Inv_batch_set, Inv_get, Inv_batch_get, Inv_get_user_state, Inv_evict.
Qed.

Lemma run_ops_in_txn ops : forall s, m_active s = true -> Inv s ->
  m_db (fold_left run_op ops s) = m_db s /\ m_active (fold_left run_op ops s) = true /\ Inv (fold_left run_op ops s).
Proof.
  induction ops as [|o ops IH]; intros s Ha HI; simpl; [auto|].
  destruct (run_op_in_txn s o Ha) as [Hd Ha']. destruct (IH (run_op s o) Ha' (run_op_Inv s o HI)) as (I1 & I2 & I3).
  rewrite I1, Hd. auto.
Qed.

(* C10: begin; any program of storage operations with any database call rejected and any cache
   eviction; then rollback, or a commit the database rejects, or a commit refused for lack of an
   epoch record: the database is exactly as before, no transaction is open, the log is empty and the
   cache still agrees with the database - so every later read returns what it returned before *)
Theorem failed_publish_restores s ops s' :
  Inv s -> m_active s = false ->
  let s1 := fold_left run_op ops (fst (begin_transaction s)) in
  (s' = fst (rollback_transaction s1) \/ s' = fst (commit_transaction s1 true) \/
   (exists e, commit_transaction s1 false = (s', Err e))) ->
  m_db s' = m_db s /\ m_active s' = false /\ m_mods s' = [] /\ Inv s'.
Proof.
  intros HI _ s1 Hend.
  destruct (run_ops_in_txn ops (fst (begin_transaction s)) eq_refl (Inv_begin s HI)) as (D1 & A1 & I1).
  fold s1 in D1, A1, I1. cbn [begin_transaction fst m_db] in D1. rewrite <- D1.
  assert (HI' : Inv s').
  { destruct Hend as [->|[->|[e He]]]; [apply Inv_rollback | apply Inv_commit | ]; try exact I1.
    pose proof (Inv_commit s1 false I1) as H. now rewrite He in H. }
  assert (H : m_db s' = m_db s1 /\ m_active s' = false /\ m_mods s' = []).
  { destruct Hend as [->|Hend]; [rewrite rollback_spec by exact A1; auto | exact (failed_commit_closes s1 s' A1 Hend)]. }
  destruct H as (H1 & H2 & H3). auto.
Qed.

Definition tombstoned (u c : N) (r : record) : record :=
  match r with
  | RVal v => if (vs_user v =? u) && (vs_epoch v <=? c) && negb (vs_value v =? 0)
              then RVal (VS (vs_user v) (vs_epoch v) (vs_version v) 0) else r
  | _ => r
  end.

Definition tomb_records (states : list vstate) (c : N) : list record :=
  flat_map (fun v => if (vs_epoch v <=? c) && negb (vs_value v =? 0)
                     then [RVal (VS (vs_user v) (vs_epoch v) (vs_version v) 0)] else []) states.

Lemma tombstone_unfold s u c : m_active s = false ->
  m_db (fst (tombstone s u c false false)) = kput_all (m_db s) (tomb_records (user_states (m_db s) u) c).
Proof.
  intros Ha. unfold tombstone, get_user_data. rewrite Ha.
  destruct (user_states (m_db s) u) as [|d0 dl] eqn:Ed; cbv beta iota zeta; cbn [fst snd].
  - reflexivity.
  - fold (tomb_records (d0 :: dl) c). unfold batch_set.
    destruct (tomb_records (d0 :: dl) c) as [|r0 rs]; [reflexivity|]. unfold tick. cbn [m_active]. rewrite Ha. reflexivity.
Qed.

(* C20 frame: outside a transaction a successful tombstone rewrites only the value field of the
   user's value states with epoch <= c; node records, the epoch record and all other value states
   are exactly as before, and no key appears or disappears *)
Theorem tombstone_frame s u c : Inv s -> m_active s = false ->
  forall k, kget (m_db (fst (tombstone s u c false false))) k =
            match kget (m_db s) k with Some r => Some (tombstoned u c r) | None => None end.
Proof.
  intros HI Ha k. pose proof HI as (_ & K1 & N1 & _ & _). rewrite tombstone_unfold by exact Ha.
  assert (Hnew : forall r, In r (tomb_records (user_states (m_db s) u) c) <->
    exists v, (kget (m_db s) (KVal u (vs_epoch v)) = Some (RVal v) /\ vs_user v = u) /\
              (vs_epoch v <=? c) && negb (vs_value v =? 0) = true /\ r = RVal (VS (vs_user v) (vs_epoch v) (vs_version v) 0)).
  { intros r. unfold tomb_records. rewrite in_flat_map_if.
    split; intros (v & Hv & H); exists v; (split; [|exact H]); apply (in_user_states_kget _ u v K1 N1); exact Hv. }
  rewrite kget_kput_all. pose proof (kfind_spec (tomb_records (user_states (m_db s) u) c) k) as F.
  destruct (kfind _ k) as [r|].
  - destruct F as [Hin <-]. apply Hnew in Hin. destruct Hin as (v & [Hg Hu] & Hc & ->). cbn [key_of vs_user vs_epoch].
    rewrite Hu, Hg. cbn [tombstoned]. rewrite Hu, N.eqb_refl. cbn [andb]. now rewrite Hc.
  - destruct (kget (m_db s) k) as [[| |v]|] eqn:G; try reflexivity. cbn [tombstoned].
    destruct (N.eqb_spec (vs_user v) u) as [Hu|]; [|reflexivity]. cbn [andb].
    destruct ((vs_epoch v <=? c) && negb (vs_value v =? 0)) eqn:C; [|reflexivity].
    pose proof (K1 _ _ G) as Hk. cbn [key_of] in Hk.
    destruct (F (RVal (VS (vs_user v) (vs_epoch v) (vs_version v) 0))); [|exact Hk].
    apply Hnew. exists v. rewrite <- Hu, Hk. auto.
Qed.
