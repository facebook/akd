(* C12: the protocol skeleton of concurrent publishes (Directory::publish, after fix F7) as a
   small-step system under an arbitrary schedule.  A publish (i) takes the publish mutex (tokio
   Mutex: FIFO hand-over), (ii) reads the current epoch e, (iii) commits epoch e+1 and releases the
   mutex, (iv) returns e+1.  Every step of the model is one or more storage operations of the
   implementation; the X-sched correspondence drives the real code under explicit schedules.
   Executable model and its theorem in one file (the model is tiny). *)
From Coq Require Import List Bool Arith NArith Lia.
From Akd Require Import ListFacts.
Import ListNotations.
Open Scope N_scope.

Inductive pc := Idle | Waiting | Locked | Read (e : N) | Done (r : N).

Record world := W {
  w_epoch : N;
  w_log : list (N * nat);       (* (epoch, task) in commit order *)
  w_holder : option nat;
  w_queue : list nat }.

Definition upd (pcs : nat -> pc) (i : nat) (p : pc) : nat -> pc := fun j => if Nat.eqb j i then p else pcs j.

(* [locking] = false is the code before fix F7: no mutex at all *)
Definition step (locking : bool) (s : world * (nat -> pc)) (i : nat) : world * (nat -> pc) :=
  let '(w, pcs) := s in
  match pcs i with
  | Idle =>
    if negb locking then (w, upd pcs i Locked)
    else match w_holder w, w_queue w with
         | None, [] => (W (w_epoch w) (w_log w) (Some i) [], upd pcs i Locked)
         | _, _ => (W (w_epoch w) (w_log w) (w_holder w) (w_queue w ++ [i]), upd pcs i Waiting)
         end
  | Waiting =>
    match w_holder w with
    | Some h => if Nat.eqb h i then (w, upd pcs i Locked) else s
    | None => s
    end
  | Locked => (w, upd pcs i (Read (w_epoch w)))
  | Read e =>
    let log' := w_log w ++ [(e + 1, i)] in
    let w' := if negb locking then W (e + 1) log' (w_holder w) (w_queue w)
              else match w_queue w with
                   | [] => W (e + 1) log' None []
                   | j :: q => W (e + 1) log' (Some j) q
                   end in
    (w', upd pcs i (Done (e + 1)))
  | Done _ => s
  end.

Definition run (locking : bool) (e0 : N) (sched : list nat) : world * (nat -> pc) :=
  fold_left (step locking) sched (W e0 [] None [], fun _ => Idle).

(* epochs returned by the tasks 0..n-1 (0 = not finished) *)
Definition results (s : world * (nat -> pc)) (n : nat) : list N :=
  map (fun i => match snd s i with Done r => r | _ => 0 end) (seq 0 n).

Inductive log_ok (e0 : N) : list (N * nat) -> N -> Prop :=
| lo_nil : log_ok e0 [] e0
| lo_snoc l e i : log_ok e0 l e -> log_ok e0 (l ++ [(e + 1, i)]) (e + 1).

Definition in_cs (p : pc) : Prop := p = Locked \/ exists e, p = Read e.

Record Inv (e0 : N) (w : world) (pcs : nat -> pc) : Prop := {
  i_cs : forall j, in_cs (pcs j) -> w_holder w = Some j;
  i_read : forall j e, pcs j = Read e -> e = w_epoch w;
  i_log : log_ok e0 (w_log w) (w_epoch w);
  i_done : forall j r, pcs j = Done r <-> In (r, j) (w_log w);
  i_queue : forall j, In j (w_queue w) -> pcs j = Waiting;
  i_free : w_holder w = None -> w_queue w = [];
  i_holder : forall h, w_holder w = Some h -> pcs h = Waiting \/ in_cs (pcs h);
  i_nodup : NoDup (w_queue w);
  i_hq : forall h, w_holder w = Some h -> ~ In h (w_queue w) }.

Lemma upd_same pcs i p : upd pcs i p i = p.
Proof. exact (fun_upd_same pcs i p). Qed.
Lemma upd_other pcs i p j : j <> i -> upd pcs i p j = pcs j.
Proof. exact (fun_upd_other pcs i p j). Qed.

Lemma log_ok_bounds e0 l e : log_ok e0 l e -> e0 <= e /\ forall r j, In (r, j) l -> e0 < r /\ r <= e.
Proof.
  induction 1 as [|l e i H IH]; [split; [lia|intros r j []]|].
  destruct IH as [I1 I2]. split; [lia|]. intros r j Hin. apply in_app_or in Hin. destruct Hin as [Hin|[[= <- <-]|[]]].
  - specialize (I2 r j Hin). lia.
  - lia.
Qed.

Lemma log_ok_functional e0 l e : log_ok e0 l e -> forall r j k, In (r, j) l -> In (r, k) l -> j = k.
Proof.
  induction 1 as [|l e i H IH]; intros r j k Hj Hk; [destruct Hj|].
  destruct (log_ok_bounds _ _ _ H) as [_ B].
  apply in_app_or in Hj. apply in_app_or in Hk.
  destruct Hj as [Hj|[Ej|[]]]; destruct Hk as [Hk|[Ek|[]]].
  - eapply IH; eauto.
  - exfalso. inversion Ek; subst. specialize (B _ _ Hj). lia.
  - exfalso. inversion Ej; subst. specialize (B _ _ Hk). lia.
  - congruence.
Qed.

Lemma log_ok_length e0 l e : log_ok e0 l e -> e = e0 + N.of_nat (length l).
Proof. induction 1 as [|l e i H IH]; [simpl; lia|]. rewrite app_length. simpl. lia. Qed.

Lemma log_ok_onto e0 l e : log_ok e0 l e -> forall r, e0 < r -> r <= e -> exists j, In (r, j) l.
Proof.
  induction 1 as [|l e i HL IH]; intros r H1 H2; [lia|].
  destruct (N.eq_dec r (e + 1)) as [->|Hne].
  - exists i. apply in_or_app. right. now left.
  - destruct (IH r H1 ltac:(lia)) as [j Hj]. exists j. apply in_or_app. now left.
Qed.

Lemma Inv_init e0 : Inv e0 (W e0 [] None []) (fun _ => Idle).
Proof.
  constructor; cbn; try (intros; discriminate).
  - intros j [H|[e H]]; discriminate.
  - constructor.
  - intros j r. split; [discriminate|intros []].
  - intros j [].
  - reflexivity.
  - constructor.
Qed.

Ltac split_task j i := destruct (Nat.eq_dec j i) as [->|?]; [rewrite ?upd_same in *|rewrite ?upd_other in * by assumption].

Lemma done_frame pcs i p l : (forall j r, pcs j = Done r <-> In (r, j) l) ->
  (forall r, pcs i <> Done r) -> (forall r, p <> Done r) -> forall j r, upd pcs i p j = Done r <-> In (r, j) l.
Proof.
  intros H Hi Hp j r. split_task j i; [|apply H]. split; [intros E; now apply Hp in E|].
  intros Hin. apply H in Hin. now apply Hi in Hin.
Qed.
Lemma read_frame pcs i p (e0 : N) : (forall j e, pcs j = Read e -> e = e0) -> (forall e, p = Read e -> e = e0) ->
  forall j e, upd pcs i p j = Read e -> e = e0.
Proof. intros H Hp j e. split_task j i; [apply Hp | apply H]. Qed.

Lemma step_log w pcs i :
  w_log (fst (step true (w, pcs) i)) = match pcs i with Read e => w_log w ++ [(e + 1, i)] | _ => w_log w end.
Proof.
  unfold step. cbn [negb]. destruct (pcs i); try reflexivity.
  - destruct (w_holder w), (w_queue w); reflexivity.
  - destruct (w_holder w) as [h|]; [destruct (Nat.eqb h i)|]; reflexivity.
  - destruct (w_queue w); reflexivity.
Qed.
Lemma step_read_inv w pcs i j e : snd (step true (w, pcs) i) j = Read e ->
  (pcs j = Read e /\ j <> i) \/ (j = i /\ pcs i = Locked).
Proof.
  unfold step. cbn [negb]. destruct (pcs i) eqn:Ei; cbn [snd].
  - destruct (w_holder w), (w_queue w); cbn [snd]; split_task j i; intros H; try discriminate; auto.
  - destruct (w_holder w) as [h|]; [destruct (Nat.eqb h i)|]; cbn [snd]; split_task j i; intros H; try discriminate; try congruence; auto.
  - split_task j i; auto.
  - split_task j i; intros H; try discriminate; auto.
  - intros H. left. split; [exact H | congruence].
Qed.

Lemma Inv_step e0 w pcs i : Inv e0 w pcs -> Inv e0 (fst (step true (w, pcs) i)) (snd (step true (w, pcs) i)).
Proof.
  intros I. pose proof I as [Ics Ird Ilog Idn Iq Ifr Ih Ind Ihq]. unfold step. cbn [negb]. destruct (pcs i) eqn:Ei.
  - (* Idle *)
    destruct (w_holder w) as [h|] eqn:Eh; [|destruct (w_queue w) as [|q0 q] eqn:Eq].
    + (* the mutex is held: enqueue *)
      pose proof (Ih h eq_refl) as Hh. assert (Nh : h <> i) by (intros ->; destruct Hh as [Hh|[Hh|[e Hh]]]; congruence).
      cbn [fst snd]. constructor; cbn [w_holder w_queue w_epoch w_log]; try assumption;
        try (apply (read_frame _ _ _ _ Ird); congruence); try (apply (done_frame _ _ _ _ Idn); congruence).
      * intros j Hj. split_task j i; [destruct Hj as [Hj|[e Hj]]; discriminate | auto].
      * intros j Hj. apply in_app_or in Hj. destruct Hj as [Hj|[<-|[]]]; [|apply upd_same].
        pose proof (Iq j Hj) as Hw. split_task j i; [congruence|exact Hw].
      * discriminate.
      * intros h' [= <-]. rewrite upd_other by exact Nh. exact Hh.
      * apply NoDup_snoc; [exact Ind|]. intros Hin. apply Iq in Hin. congruence.
      * intros h' [= <-] Hin. apply in_app_or in Hin. destruct Hin as [Hin|[Hin|[]]]; [|congruence].
        exact (Ihq h eq_refl Hin).
    + (* free: acquire *)
      cbn [fst snd]. constructor; cbn [w_holder w_queue w_epoch w_log]; try assumption;
        try (apply (read_frame _ _ _ _ Ird); congruence); try (apply (done_frame _ _ _ _ Idn); congruence).
      * intros j Hj. split_task j i; [reflexivity|]. apply Ics in Hj. congruence.
      * intros j [].
      * reflexivity.
      * intros h [= <-]. right. left. apply upd_same.
      * intros h _ [].
    + exfalso. pose proof (Ifr eq_refl). congruence.
  - (* Waiting: the mutex has been handed over *)
    destruct (w_holder w) as [h|] eqn:Eh; [|exact I].
    destruct (Nat.eqb_spec h i) as [->|Hne]; [|exact I].
    cbn [fst snd]. constructor; rewrite ?Eh; try assumption;
      try (apply (read_frame _ _ _ _ Ird); congruence); try (apply (done_frame _ _ _ _ Idn); congruence).
    + intros j Hj. split_task j i; [reflexivity | auto].
    + intros j Hj. pose proof (Iq j Hj) as Hw. split_task j i; [|exact Hw]. exfalso. exact (Ihq i eq_refl Hj).
    + intros h' [= <-]. right. left. apply upd_same.
  - (* Locked: read the epoch *)
    cbn [fst snd]. assert (Eh : w_holder w = Some i) by (apply Ics; left; exact Ei).
    constructor; try assumption;
      try (apply (read_frame _ _ _ _ Ird); congruence); try (apply (done_frame _ _ _ _ Idn); congruence).
    + intros j Hj. split_task j i; [exact Eh | exact (i_cs _ _ _ I j Hj)].
    + intros j Hj. pose proof (Iq j Hj) as Hw. split_task j i; [congruence|exact Hw].
    + intros h' Hh'. rewrite Eh in Hh'. injection Hh' as <-. right. right. exists (w_epoch w). apply upd_same.
  - (* Read e: commit epoch e+1 and release; nobody else is in the critical section *)
    assert (Ee : e = w_epoch w) by (apply (Ird i); exact Ei).
    assert (Eh : w_holder w = Some i) by (apply Ics; right; eauto).
    assert (Hlog : log_ok e0 (w_log w ++ [(e + 1, i)]) (e + 1)) by (rewrite Ee; constructor; exact Ilog).
    assert (Hdone : forall j r, upd pcs i (Done (e + 1)) j = Done r <-> In (r, j) (w_log w ++ [(e + 1, i)])).
    { intros j r. rewrite in_app_iff. cbn [In]. split_task j i.
      - split; [intros [= <-]; auto|]. intros [Hin|[[= <-]|[]]]; [|reflexivity]. apply Idn in Hin. congruence.
      - rewrite Idn. split; [auto|]. intros [Hin|[[= _ E]|[]]]; [exact Hin|congruence]. }
    assert (Hnocs : forall j, ~ in_cs (upd pcs i (Done (e + 1)) j)).
    { intros j Hj. split_task j i; [destruct Hj as [Hj|[e' Hj]]; discriminate|]. apply Ics in Hj. congruence. }
    assert (Hrd : forall j e', upd pcs i (Done (e + 1)) j = Read e' -> e' = e + 1).
    { intros j e' Hj. exfalso. apply (Hnocs j). right. eauto. }
    assert (Hq : forall j, In j (w_queue w) -> upd pcs i (Done (e + 1)) j = Waiting).
    { intros j Hj. pose proof (Iq j Hj) as Hw. split_task j i; [congruence|exact Hw]. }
    destruct (w_queue w) as [|j0 q] eqn:Eq; cbn [fst snd]; constructor; cbn [w_holder w_queue w_epoch w_log];
      try exact Hlog; try exact Hdone; try exact Hrd; try (intros j Hj; exfalso; exact (Hnocs j Hj)); try discriminate.
    + intros j [].
    + reflexivity.
    + constructor.
    + intros j Hj. apply Hq. now right.
    + (* the mutex is handed to the head of the queue *)
      intros h [= <-]. left. apply Hq. now left.
    + now inversion Ind.
    + intros h [= <-]. now inversion Ind.
  - exact I.
Qed.

Lemma Inv_run e0 sched : let s := run true e0 sched in Inv e0 (fst s) (snd s).
Proof.
  apply (fold_left_inv (fun s => Inv e0 (fst s) (snd s))); [|apply Inv_init].
  intros [w pcs] i. apply Inv_step.
Qed.

(* C12: under every schedule, the epochs returned by finished publishes are pairwise distinct, lie
   in (e0, current epoch], and the current epoch is e0 + the number of commits: the successful
   publishes receive the distinct consecutive epochs e0+1 ... in commit order *)
Theorem publishes_serialize e0 sched :
  let s := run true e0 sched in
  (forall j k r, snd s j = Done r -> snd s k = Done r -> j = k) /\
  (forall j r, snd s j = Done r -> e0 < r /\ r <= w_epoch (fst s)) /\
  w_epoch (fst s) = e0 + N.of_nat (length (w_log (fst s))) /\
  (forall r, e0 < r -> r <= w_epoch (fst s) -> exists j, snd s j = Done r).
Proof.
  intros s. pose proof (Inv_run e0 sched) as I. fold s in I. cbv zeta in I.
  split; [|split; [|split]].
  - intros j k r Hj Hk. apply (i_done _ _ _ I) in Hj, Hk. eapply log_ok_functional; eauto using (i_log _ _ _ I).
  - intros j r Hj. apply (i_done _ _ _ I) in Hj. destruct (log_ok_bounds _ _ _ (i_log _ _ _ I)) as [_ B]. exact (B _ _ Hj).
  - apply log_ok_length. apply (i_log _ _ _ I).
  - intros r H1 H2. destruct (log_ok_onto _ _ _ (i_log _ _ _ I) r H1 H2) as [j Hj]. exists j. now apply (i_done _ _ _ I).
Qed.

(* before fix F7 (no mutex) two overlapping publishes both return the same epoch *)
Theorem without_mutex_refuted : results (run false 2 [0; 1; 0; 1; 0; 1]%nat) 2 = [3; 3].
Proof. vm_compute. reflexivity. Qed.

Example with_mutex_example : results (run true 2 [0; 1; 0; 1; 0; 1; 1; 1; 1]%nat) 2 = [3; 4].
Proof. vm_compute. reflexivity. Qed.
