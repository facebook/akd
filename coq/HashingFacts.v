(* The hash formulas of both configurations are binding up to an explicit bad event: a collision
   of the underlying hash H (and, for the experimental configuration whose empty values are the
   all-zero digest, a preimage of the zero digest).  HashingBinding.v collects these facts into the
   Binding bundle. *)
From Coq Require Import List Bool Arith NArith Lia.
From Akd Require Import Bits NodeLabel NodeLabelFacts Hashing Tree TreeFacts.
Import ListNotations.
Open Scope N_scope.

Lemma bytes_eq_dec (x y : bytes) : {x = y} + {x <> y}.
Proof. apply list_eq_dec. apply N.eq_dec. Qed.

Lemma length_be_bytes k n : length (be_bytes k n) = k.
Proof. unfold be_bytes. now rewrite map_length, seq_length. Qed.

Lemma nth_be_bytes k n i : (i < k)%nat ->
  nth i (be_bytes k n) 0 = N.land (N.shiftr n (8 * N.of_nat (k - 1 - i))) 255.
Proof.
  intros Hi. unfold be_bytes.
  set (f := fun i0 : nat => N.land (N.shiftr n (8 * N.of_nat (k - 1 - i0))) 255).
  rewrite (nth_indep _ 0 (f 0%nat)) by (rewrite map_length, seq_length; exact Hi).
  rewrite map_nth. rewrite seq_nth by exact Hi. reflexivity.
Qed.

Lemma be_bytes_inj k n m : n < 2 ^ (8 * N.of_nat k) -> m < 2 ^ (8 * N.of_nat k) ->
  be_bytes k n = be_bytes k m -> n = m.
Proof.
  intros Hn Hm H. apply N.bits_inj. intros j.
  destruct (N.ltb_spec j (8 * N.of_nat k)) as [Hj|Hj].
  - set (i := (k - 1 - N.to_nat (j / 8))%nat).
    assert (Hi : (i < k)%nat) by (subst i; lia).
    pose proof (f_equal (fun l => nth i l 0) H) as Hb. cbv beta in Hb.
    rewrite !nth_be_bytes in Hb by exact Hi.
    assert (Es : 8 * N.of_nat (k - 1 - i) = 8 * (j / 8)) by (subst i; lia).
    rewrite Es in Hb.
    pose proof (f_equal (fun x => N.testbit x (j mod 8)) Hb) as Ht. cbv beta in Ht.
    change 255 with (N.ones 8) in Ht. rewrite !N.land_ones in Ht.
    rewrite !N.mod_pow2_bits_low in Ht by (apply N.mod_lt; lia).
    rewrite !N.shiftr_spec' in Ht.
    replace (j mod 8 + 8 * (j / 8)) with j in Ht by (pose proof (N.div_mod j 8 ltac:(lia)); lia).
    exact Ht.
  - assert (Hz : forall x, x < 2 ^ (8 * N.of_nat k) -> N.testbit x j = false).
    { intros x Hx. destruct (N.eq_dec x 0) as [->|Hx0]; [apply N.bits_0|].
      apply N.bits_above_log2. apply N.log2_lt_pow2 in Hx; lia. }
    rewrite !Hz by assumption. reflexivity.
Qed.

Lemma LW_bytes_len l : LW l -> length (nl_to_bytes l) = 36%nat.
Proof. intros (H & _). unfold nl_to_bytes. rewrite app_length, length_be_bytes, H. reflexivity. Qed.

Lemma nl_to_bytes_inj l l' : LW l -> LW l' -> nl_to_bytes l = nl_to_bytes l' -> l = l'.
Proof.
  intros (L1 & _ & L3) (L1' & _ & L3') H. unfold nl_to_bytes in H.
  apply app_eq_len in H; [|now rewrite !length_be_bytes]. destruct H as [H1 H2].
  apply be_bytes_inj in H1; [|exact L3|exact L3']. destruct l, l'; simpl in *; congruence.
Qed.

Lemma len_be64 e : length (be64 e) = 8%nat.
Proof. apply length_be_bytes. Qed.
Lemma len_EMPTY : length GenConsts.EMPTY_VALUE = 1%nat.
Proof. reflexivity. Qed.

Section Facts.
  Variable H : bytes -> bytes.
  Hypothesis H_len : forall x, length (H x) = 32%nat.

  Definition Collision : Prop := exists x y, x <> y /\ H x = H y.
  Definition ZeroPre : Prop := exists x, H x = zero_digest.

  Lemma H_inj x y : H x = H y -> x = y \/ Collision.
  Proof. intros E. destruct (bytes_eq_dec x y) as [|Hn]; [now left|]. right. exists x, y. auto. Qed.

  Lemma H_len_neq x y : length x <> length y -> H x = H y -> Collision.
  Proof. intros Hl E. exists x, y. split; [congruence|exact E]. Qed.

  Section WhatsApp.
    Let cfg := whatsapp H.

    Lemma w_lvalue l : lvalue cfg l = H (nl_to_bytes l).
    Proof. reflexivity. Qed.
    Lemma w_parent a la b lb : c_parent_hash cfg a la b lb = H (H (a ++ la) ++ H (b ++ lb)).
    Proof. reflexivity. Qed.

    Lemma w_leaf c e : c_leaf_hash cfg c e = H (c ++ be64 e).
    Proof. reflexivity. Qed.
    Lemma w_empty_root : c_empty_root_value cfg = H GenConsts.EMPTY_VALUE.
    Proof. reflexivity. Qed.
    Lemma w_empty_node : c_empty_node_hash cfg = H (H GenConsts.EMPTY_VALUE ++ H (nl_to_bytes empty_label_whatsapp)).
    Proof. reflexivity. Qed.
    Lemma w_root v : c_root_hash_from_val cfg v = H (v ++ H (nl_to_bytes nl_root)).
    Proof. reflexivity. Qed.

    Lemma w_parent_inj a la b lb a' la' b' lb' :
      D32 a -> D32 a' -> D32 b -> D32 b' -> LW la -> LW la' -> LW lb -> LW lb' ->
      c_parent_hash cfg a (lvalue cfg la) b (lvalue cfg lb) =
      c_parent_hash cfg a' (lvalue cfg la') b' (lvalue cfg lb') ->
      (a = a' /\ lvalue cfg la = lvalue cfg la' /\ b = b' /\ lvalue cfg lb = lvalue cfg lb') \/ Collision.
    Proof.
      intros Da Da' Db Db' _ _ _ _ E. rewrite !w_parent in E.
      apply H_inj in E. destruct E as [E|]; [|now right].
      apply app_eq_len in E; [|now rewrite !H_len]. destruct E as [E1 E2].
      apply H_inj in E1. destruct E1 as [E1|]; [|now right].
      apply H_inj in E2. destruct E2 as [E2|]; [|now right].
      apply app_eq_len in E1; [|unfold D32 in *; congruence].
      apply app_eq_len in E2; [|unfold D32 in *; congruence]. left. tauto.
    Qed.

    Lemma w_lvalue_inj l l' : LW l -> LW l' -> lvalue cfg l = lvalue cfg l' -> l = l' \/ Collision.
    Proof.
      intros L L' E. rewrite !w_lvalue in E. apply H_inj in E. destruct E as [E|]; [|now right].
      left. now apply nl_to_bytes_inj.
    Qed.

    Lemma w_leaf_not_parent c e a la b lb :
      D32 c -> D32 a -> D32 b -> LW la -> LW lb ->
      c_leaf_hash cfg c e = c_parent_hash cfg a (lvalue cfg la) b (lvalue cfg lb) -> Collision.
    Proof.
      intros Dc _ _ _ _ E. rewrite w_parent, w_leaf in E. apply H_len_neq in E; [exact E|].
      rewrite !app_length, !H_len, len_be64. unfold D32 in Dc. lia.
    Qed.

    Lemma w_root_inj v v' : D32 v -> D32 v' ->
      c_root_hash_from_val cfg v = c_root_hash_from_val cfg v' -> v = v' \/ Collision.
    Proof.
      intros _ _ E. rewrite !w_root in E. apply H_inj in E. destruct E as [E|]; [|now right].
      left. now apply app_inv_tail in E.
    Qed.

    Lemma w_empty_root_not_parent a la b lb : D32 a -> D32 b -> LW la -> LW lb ->
      c_empty_root_value cfg = c_parent_hash cfg a (lvalue cfg la) b (lvalue cfg lb) -> Collision.
    Proof.
      intros _ _ _ _ E. rewrite w_parent, w_empty_root in E. apply H_len_neq in E; [exact E|].
      rewrite !app_length, !H_len, len_EMPTY. lia.
    Qed.

    Lemma w_empty_node_not_parent a la b lb : D32 a -> D32 b -> LW la -> LW lb ->
      c_empty_node_hash cfg = c_parent_hash cfg a (lvalue cfg la) b (lvalue cfg lb) -> Collision.
    Proof.
      intros Da _ _ _ E. rewrite w_parent, w_empty_node in E.
      apply H_inj in E. destruct E as [E|Hc]; [|exact Hc].
      apply app_eq_len in E; [|now rewrite !H_len]. destruct E as [E _].
      apply H_len_neq in E; [exact E|]. rewrite app_length, w_lvalue, H_len, len_EMPTY. unfold D32 in Da. lia.
    Qed.

    Lemma w_leaf_not_empty_root c e : D32 c -> c_leaf_hash cfg c e = c_empty_root_value cfg -> Collision.
    Proof.
      intros Dc E. rewrite w_leaf, w_empty_root in E. apply H_len_neq in E; [exact E|].
      rewrite app_length, len_be64, len_EMPTY. unfold D32 in Dc. lia.
    Qed.
  End WhatsApp.

  Section Experimental.
    Variable domain : bytes.
    Let cfg := experimental H domain.
    Definition BadE : Prop := Collision \/ ZeroPre.

    Lemma e_lvalue l : lvalue cfg l = nl_to_bytes l.
    Proof. reflexivity. Qed.
    Lemma e_parent a la b lb : c_parent_hash cfg a la b lb = H (domain ++ a ++ la ++ b ++ lb).
    Proof. reflexivity. Qed.

    Lemma e_leaf c e : c_leaf_hash cfg c e = H (domain ++ c ++ be64 e).
    Proof. reflexivity. Qed.

    Lemma e_parent_inj a la b lb a' la' b' lb' :
      D32 a -> D32 a' -> D32 b -> D32 b' -> LW la -> LW la' -> LW lb -> LW lb' ->
      c_parent_hash cfg a (lvalue cfg la) b (lvalue cfg lb) =
      c_parent_hash cfg a' (lvalue cfg la') b' (lvalue cfg lb') ->
      (a = a' /\ lvalue cfg la = lvalue cfg la' /\ b = b' /\ lvalue cfg lb = lvalue cfg lb') \/ BadE.
    Proof.
      intros Da Da' Db Db' La La' Lb Lb' E. rewrite !e_parent, !e_lvalue in E.
      apply H_inj in E. destruct E as [E|]; [|right; now left].
      apply app_inv_head in E.
      apply app_eq_len in E; [|unfold D32 in *; congruence]. destruct E as [E1 E].
      apply app_eq_len in E; [|now rewrite !LW_bytes_len]. destruct E as [E2 E].
      apply app_eq_len in E; [|unfold D32 in *; congruence]. destruct E as [E3 E4].
      left. rewrite !e_lvalue. tauto.
    Qed.

    Lemma e_lvalue_inj l l' : LW l -> LW l' -> lvalue cfg l = lvalue cfg l' -> l = l' \/ BadE.
    Proof. intros L L' E. left. rewrite !e_lvalue in E. now apply nl_to_bytes_inj. Qed.

    Lemma e_leaf_not_parent c e a la b lb :
      D32 c -> D32 a -> D32 b -> LW la -> LW lb ->
      c_leaf_hash cfg c e = c_parent_hash cfg a (lvalue cfg la) b (lvalue cfg lb) -> BadE.
    Proof.
      intros Dc Da Db La Lb E. rewrite e_parent, !e_lvalue, e_leaf in E. left.
      apply H_len_neq in E; [exact E|].
      rewrite !app_length, !LW_bytes_len, len_be64 by assumption. unfold D32 in *. lia.
    Qed.

    Lemma e_root_inj v v' : D32 v -> D32 v' ->
      c_root_hash_from_val cfg v = c_root_hash_from_val cfg v' -> v = v' \/ BadE.
    Proof. intros _ _ E. left. exact E. Qed.

    Lemma e_zero_not_parent a la b lb :
      zero_digest = c_parent_hash cfg a la b lb -> BadE.
    Proof. intros E. right. eexists. symmetry. rewrite e_parent in E. exact E. Qed.

    Lemma e_leaf_not_empty_root c e : D32 c -> c_leaf_hash cfg c e = c_empty_root_value cfg -> BadE.
    Proof. intros _ E. right. eexists. exact E. Qed.

    Lemma zero_D32 : D32 zero_digest.
    Proof. reflexivity. Qed.
  End Experimental.
End Facts.
