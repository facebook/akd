(* Both real configurations satisfy the Binding bundle (up to a collision of H; for the experimental
   configuration also up to a preimage of the all-zero digest). *)
From Coq Require Import List Bool Arith NArith Lia.
From Akd Require Import Bits NodeLabel NodeLabelFacts Hashing Tree TreeFacts HashingFacts Binding.
Import ListNotations.
Open Scope N_scope.

(* i2osp_array is self-delimiting: the length comes first *)
Lemma i2osp_array_prefix_inj v v' r r' : Len64 v -> Len64 v' ->
  i2osp_array v ++ r = i2osp_array v' ++ r' -> v = v' /\ r = r'.
Proof.
  unfold Len64, i2osp_array. intros L L' E. rewrite <- !app_assoc in E.
  apply app_eq_len in E; [|now rewrite !length_be_bytes]. destruct E as [E1 E].
  apply be_bytes_inj in E1; [|exact L|exact L']. apply app_eq_len in E; [|lia]. exact E.
Qed.

Lemma i2osp_pair_inj v n v' n' : Len64 v -> Len64 n -> Len64 v' -> Len64 n' ->
  i2osp_array v ++ i2osp_array n = i2osp_array v' ++ i2osp_array n' -> v = v' /\ n = n'.
Proof.
  intros Lv _ Lv' _ E. apply i2osp_array_prefix_inj in E; [|exact Lv|exact Lv']. destruct E as [-> E].
  apply app_eq_len in E; [|now rewrite !length_be_bytes]. destruct E as [_ ->]. auto.
Qed.

(* the empty labels of both configurations: 32 bytes below 256, length 0, some bit set *)
Lemma empty_labels_WF : WF empty_label_whatsapp /\ WF empty_label_experimental.
Proof. split; reflexivity. Qed.
Lemma empty_labels_not_canonical : canonical empty_label_whatsapp = false /\ canonical empty_label_experimental = false.
Proof. split; reflexivity. Qed.

Section Bindings.
  Variable H : bytes -> bytes.
  Hypothesis H_len : forall x, length (H x) = 32%nat.

  (* both configurations hash a leaf as H (domain ++ commitment ++ epoch) and a commitment as
     H (domain ++ i2osp value ++ i2osp nonce), WhatsAppV1 with the empty domain *)
  Lemma leaf_hash_inj domain c e c' e' : D32 c -> D32 c' -> e < 2 ^ 64 -> e' < 2 ^ 64 ->
    H (domain ++ c ++ be64 e) = H (domain ++ c' ++ be64 e') -> (c = c' /\ e = e') \/ Collision H.
  Proof.
    intros Dc Dc' He He' E. apply H_inj in E. destruct E as [E|]; [|now right]. left.
    apply app_inv_head in E. apply app_eq_len in E; [|unfold D32 in *; congruence]. destruct E as [-> E]. split; [reflexivity|].
    unfold be64 in E. apply be_bytes_inj in E; auto.
  Qed.

  Lemma commit_hash_inj domain v n v' n' : Len64 v -> Len64 n -> Len64 v' -> Len64 n' ->
    H (domain ++ i2osp_array v ++ i2osp_array n) = H (domain ++ i2osp_array v' ++ i2osp_array n') ->
    (v = v' /\ n = n') \/ Collision H.
  Proof.
    intros L1 L2 L3 L4 E. apply H_inj in E. destruct E as [E|]; [|now right]. left.
    apply app_inv_head in E. now apply i2osp_pair_inj.
  Qed.

  Lemma w_commit_inj v n v' n' : Len64 v -> Len64 n -> Len64 v' -> Len64 n' ->
    commit (whatsapp H) v n = commit (whatsapp H) v' n' -> (v = v' /\ n = n') \/ Collision H.
  Proof. exact (commit_hash_inj [] v n v' n'). Qed.

  Theorem whatsapp_binding : Binding (whatsapp H) (Collision H).
  Proof using H_len.
    constructor.
    - exact (w_parent_inj H H_len).
    - exact (w_lvalue_inj H).
    - exact (w_leaf_not_parent H H_len).
    - exact (w_root_inj H).
    - exact (w_empty_root_not_parent H H_len).
    - exact (w_empty_node_not_parent H H_len).
    - exact (w_leaf_not_empty_root H H_len).
    - intros. apply H_len.
    - intros. apply H_len.
    - apply H_len.
    - apply H_len.
    - exact (WF_LW _ (proj1 empty_labels_WF)).
    - discriminate.
    - exact (proj1 empty_labels_not_canonical).
    - exact (leaf_hash_inj []).
    - exact w_commit_inj.
    - intros. apply H_len.
  Qed.

  Variable domain : bytes.

  Lemma bad_l (P : Prop) : P \/ Collision H -> P \/ BadE H.
  Proof. intros [HP|Hc]; [left; exact HP | right; left; exact Hc]. Qed.

  Theorem experimental_binding : Binding (experimental H domain) (BadE H).
  Proof using H_len.
    constructor.
    - exact (e_parent_inj H domain).
    - exact (e_lvalue_inj H domain).
    - exact (e_leaf_not_parent H H_len domain).
    - exact (e_root_inj H domain).
    - intros a la b lb _ _ _ _ E. exact (e_zero_not_parent H domain _ _ _ _ E).
    - intros a la b lb _ _ _ _ E. exact (e_zero_not_parent H domain _ _ _ _ E).
    - exact (e_leaf_not_empty_root H domain).
    - intros. apply H_len.
    - intros. apply H_len.
    - apply zero_D32.
    - apply zero_D32.
    - exact (WF_LW _ (proj2 empty_labels_WF)).
    - discriminate.
    - exact (proj2 empty_labels_not_canonical).
    - intros c e c' e' Dc Dc' He He' E. apply bad_l. exact (leaf_hash_inj domain c e c' e' Dc Dc' He He' E).
    - intros v n v' n' L1 L2 L3 L4 E. apply bad_l. exact (commit_hash_inj domain v n v' n' L1 L2 L3 L4 E).
    - intros. apply H_len.
  Qed.
End Bindings.
