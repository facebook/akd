(* Bit strings: the mathematical meaning of node labels (layer L0), with the algebra of prefixes,
   longest common prefixes and directions ([pord]) that the tree layers reason in. *)
From Coq Require Import List Bool Arith Lia.
From Akd Require Import ListFacts.
Import ListNotations.

Definition bits := list bool.

Fixpoint prefixb (a b : bits) : bool :=
  match a, b with
  | [], _ => true
  | x :: a', y :: b' => Bool.eqb x y && prefixb a' b'
  | _ :: _, [] => false
  end.

Fixpoint lcp (a b : bits) : bits :=
  match a, b with
  | x :: a', y :: b' => if Bool.eqb x y then x :: lcp a' b' else []
  | _, _ => []
  end.

Fixpoint bits_eqb (a b : bits) : bool :=
  match a, b with
  | [], [] => true
  | x :: a', y :: b' => Bool.eqb x y && bits_eqb a' b'
  | _, _ => false
  end.

Fixpoint lex_cmp (a b : bits) : comparison :=
  match a, b with
  | [], [] => Eq
  | [], _ :: _ => Lt
  | _ :: _, [] => Gt
  | x :: a', y :: b' =>
    match x, y with
    | false, true => Lt
    | true, false => Gt
    | _, _ => lex_cmp a' b'
    end
  end.

Definition shortlex_cmp (a b : bits) : comparison :=
  match Nat.compare (length a) (length b) with
  | Eq => lex_cmp a b
  | c => c
  end.

(* direction of [b] below [a]: None = [b] is not a proper extension of [a] *)
Definition pord (a b : bits) : option bool :=
  if length b <=? length a then None
  else if prefixb a b then Some (nth (length a) b false) else None.

Definition Prefix (a b : bits) : Prop := exists c, b = a ++ c.

Lemma bits_eqb_eq a b : bits_eqb a b = true <-> a = b.
Proof.
  revert b; induction a as [|x a IH]; intros [|y b]; simpl; split; try congruence; auto.
  - rewrite andb_true_iff. intros [H1 H2]. apply eqb_prop in H1. apply IH in H2. congruence.
  - intros H; inversion H; subst. rewrite eqb_reflx. simpl. apply IH. reflexivity.
Qed.

Lemma bits_eqb_refl a : bits_eqb a a = true.
Proof. apply bits_eqb_eq. reflexivity. Qed.

Lemma existsb_bits_eqb a l : existsb (bits_eqb a) l = true <-> In a l.
Proof.
  rewrite existsb_exists. split.
  - intros (b & H & E). apply bits_eqb_eq in E. subst b. exact H.
  - intros H. exists a. split; [exact H | apply bits_eqb_refl].
Qed.

Lemma prefixb_Prefix a b : prefixb a b = true <-> Prefix a b.
Proof.
  revert b; induction a as [|x a IH]; intros b; simpl.
  - split; auto. intros _. exists b. reflexivity.
  - destruct b as [|y b].
    + split; [discriminate|]. intros [c Hc]. discriminate.
    + rewrite andb_true_iff, IH. split.
      * intros [H1 [c Hc]]. apply eqb_prop in H1. subst. exists c. reflexivity.
      * intros [c Hc]. inversion Hc; subst. split; [apply eqb_reflx|]. exists c. reflexivity.
Qed.

Lemma prefixb_nth a b :
  prefixb a b = true <->
  length a <= length b /\ forall i, i < length a -> nth i a false = nth i b false.
Proof.
  revert b; induction a as [|x a IH]; intros b; simpl.
  - split; auto. intros _. split; [lia|]. intros i Hi; lia.
  - destruct b as [|y b]; simpl.
    + split; [discriminate|]. intros [H _]. lia.
    + rewrite andb_true_iff, IH. split.
      * intros [H1 [H2 H3]]. apply eqb_prop in H1. subst. split; [lia|].
        intros [|i] Hi; auto. apply H3. lia.
      * intros [H1 H2]. split.
        -- specialize (H2 0 ltac:(lia)). simpl in H2. subst. apply eqb_reflx.
        -- split; [lia|]. intros i Hi. apply (H2 (S i)). lia.
Qed.

Lemma prefixb_refl a : prefixb a a = true.
Proof. apply prefixb_Prefix. exists []. now rewrite app_nil_r. Qed.

Lemma prefixb_firstn n a : prefixb (firstn n a) a = true.
Proof. apply prefixb_Prefix. exists (skipn n a). symmetry. apply firstn_skipn. Qed.

Lemma prefixb_firstn_iff a b : prefixb a b = true <-> firstn (length a) b = a.
Proof.
  rewrite prefixb_Prefix. split.
  - intros [c ->]. apply firstn_app_exact. reflexivity.
  - intros H. exists (skipn (length a) b). rewrite <- H at 1. symmetry. apply firstn_skipn.
Qed.

Lemma prefixb_trans a b c : prefixb a b = true -> prefixb b c = true -> prefixb a c = true.
Proof.
  rewrite !prefixb_Prefix. intros [x Hx] [y Hy]. exists (x ++ y). subst. now rewrite app_assoc.
Qed.

Lemma prefixb_length a b : prefixb a b = true -> length a <= length b.
Proof. intros H. apply prefixb_nth in H. tauto. Qed.

Lemma prefixb_antisym a b : prefixb a b = true -> prefixb b a = true -> a = b.
Proof.
  rewrite !prefixb_Prefix. intros [x Hx] [y Hy]. subst b.
  rewrite <- app_assoc in Hy. rewrite <- (app_nil_r a) in Hy at 1.
  apply app_inv_head in Hy. symmetry in Hy. apply app_eq_nil in Hy. destruct Hy; subst.
  now rewrite app_nil_r.
Qed.

Lemma prefixb_app a c : prefixb a (a ++ c) = true.
Proof. apply prefixb_Prefix. now exists c. Qed.

Lemma prefixb_total a b c :
  prefixb a c = true -> prefixb b c = true -> length a <= length b -> prefixb a b = true.
Proof.
  rewrite !prefixb_nth. intros [Ha1 Ha2] [Hb1 Hb2] Hl. split; [exact Hl|].
  intros i Hi. rewrite Ha2 by exact Hi. symmetry. apply Hb2. lia.
Qed.

Lemma prefixb_long_eq a b : prefixb a b = true -> length b <= length a -> a = b.
Proof.
  intros H Hl. apply prefixb_antisym; [exact H|].
  eapply prefixb_total; [apply prefixb_refl | exact H | exact Hl].
Qed.

Lemma prefixb_app_l a c b : prefixb (a ++ c) b = true -> prefixb a b = true.
Proof. apply prefixb_trans, prefixb_app. Qed.

Lemma snoc_not_prefix a (d : bool) : prefixb (a ++ [d]) a = true -> False.
Proof. intros H. apply prefixb_length in H. rewrite app_length in H. cbn [length] in H. lia. Qed.

Lemma nth_of_prefix a b k : prefixb a b = true -> k < length a -> nth k b false = nth k a false.
Proof. intros H Hk. apply prefixb_nth in H. symmetry. apply H, Hk. Qed.

Lemma lcp_prefix_l a b : prefixb (lcp a b) a = true.
Proof.
  revert b; induction a as [|x a IH]; intros [|y b]; simpl; auto.
  destruct (Bool.eqb x y) eqn:E; simpl; auto. rewrite eqb_reflx. simpl. apply IH.
Qed.

Lemma lcp_comm a b : lcp a b = lcp b a.
Proof.
  revert b; induction a as [|x a IH]; intros [|y b]; simpl; auto.
  destruct x, y; simpl; auto; f_equal; apply IH.
Qed.

Lemma lcp_prefix_r a b : prefixb (lcp a b) b = true.
Proof. rewrite lcp_comm. apply lcp_prefix_l. Qed.

Lemma lcp_greatest a b c : prefixb c a = true -> prefixb c b = true -> prefixb c (lcp a b) = true.
Proof.
  revert a b; induction c as [|z c IH]; intros a b Ha Hb; simpl; auto.
  destruct a as [|x a]; [discriminate|]. destruct b as [|y b]; [discriminate|].
  simpl in *. apply andb_true_iff in Ha, Hb. destruct Ha as [Ha1 Ha2], Hb as [Hb1 Hb2].
  apply eqb_prop in Ha1, Hb1. subst. rewrite eqb_reflx. simpl. rewrite eqb_reflx. simpl.
  now apply IH.
Qed.

Lemma lcp_idem a : lcp a a = a.
Proof. induction a as [|x a IH]; simpl; auto. rewrite eqb_reflx. now f_equal. Qed.

Lemma lcp_of_prefix a b : prefixb a b = true -> lcp a b = a.
Proof.
  intros H. apply prefixb_antisym; [apply lcp_prefix_l|].
  apply lcp_greatest; [apply prefixb_refl|exact H].
Qed.

(* characterisation used for the while loop of get_longest_common_prefix *)
Lemma lcp_firstn a b p :
  p <= length a -> p <= length b ->
  (forall i, i < p -> nth i a false = nth i b false) ->
  (p = length a \/ p = length b \/ nth p a false <> nth p b false) ->
  lcp a b = firstn p a.
Proof.
  revert b p; induction a as [|x a IH]; intros b p Ha Hb Hag Hstop.
  - simpl in *. assert (p = 0) by lia. subst. reflexivity.
  - destruct b as [|y b].
    + simpl in *. assert (p = 0) by lia. subst. reflexivity.
    + destruct p as [|p].
      * simpl. destruct Hstop as [H|[H|H]]; try (simpl in H; lia).
        simpl in H. destruct x, y; simpl; auto; congruence.
      * simpl. pose proof (Hag 0 ltac:(lia)) as H0. simpl in H0. subst y.
        rewrite eqb_reflx. f_equal. apply IH; simpl in *; try lia.
        -- intros i Hi. apply (Hag (S i)). lia.
        -- destruct Hstop as [H|[H|H]]; [left; lia|right; left; lia|right; right; exact H].
Qed.

Lemma lcp_assoc a b c : lcp (lcp a b) c = lcp a (lcp b c).
Proof.
  revert b c; induction a as [|x a IH]; intros [|y b] [|z c]; try reflexivity;
    destruct x, y; try reflexivity; destruct z; simpl; try reflexivity; f_equal; apply IH.
Qed.

Lemma pord_spec a b d :
  pord a b = Some d <-> prefixb a b = true /\ length a < length b /\ nth (length a) b false = d.
Proof.
  unfold pord. destruct (Nat.leb_spec (length b) (length a)) as [H|H]; [split; [discriminate | lia]|].
  destruct (prefixb a b); split; try discriminate.
  - intros [= <-]. auto.
  - intros (_ & _ & <-). reflexivity.
  - intros (E & _). discriminate.
Qed.

Lemma pord_below a b d : pord a b = Some d -> prefixb a b = true.
Proof. intros H. apply pord_spec in H. apply H. Qed.

Lemma pord_length a b d : pord a b = Some d -> length a < length b.
Proof. intros H. apply pord_spec in H. apply H. Qed.

Lemma pord_irrefl a : pord a a = None.
Proof. unfold pord. rewrite Nat.leb_refl. reflexivity. Qed.

Lemma pord_cons x a y b : pord (x :: a) (y :: b) = if Bool.eqb x y then pord a b else None.
Proof.
  unfold pord. cbn [length prefixb nth]. change (S (length b) <=? S (length a)) with (length b <=? length a).
  destruct (length b <=? length a), (Bool.eqb x y); reflexivity.
Qed.

Lemma pord_prefixb a b d : pord a b = Some d <-> prefixb (a ++ [d]) b = true.
Proof.
  revert b; induction a as [|x a IH]; intros [|y b]; try (split; discriminate).
  - cbn. rewrite andb_true_r. split; [intros [= <-]; apply eqb_reflx | intros H; apply eqb_prop in H; congruence].
  - rewrite pord_cons. cbn [app prefixb]. destruct (Bool.eqb x y); [apply IH | split; discriminate].
Qed.

Lemma pord_prefix a b d : pord a b = Some d -> prefixb (a ++ [d]) b = true.
Proof. apply pord_prefixb. Qed.

Lemma prefixb_snoc_nth a d b : prefixb (a ++ [d]) b = true -> nth (length a) b false = d.
Proof. intros H. apply pord_prefixb, pord_spec in H. apply H. Qed.

Lemma pord_extend a b b' d : pord a b = Some d -> prefixb b b' = true -> pord a b' = Some d.
Proof. intros H1 H2. apply pord_prefixb. eapply prefixb_trans; [apply pord_prefix; exact H1 | exact H2]. Qed.

Lemma pord_None_prefix a b : prefixb a b = true -> pord a b = None -> b = a.
Proof.
  unfold pord. intros P. rewrite P. destruct (Nat.leb_spec (length b) (length a)) as [Hl|]; [intros _|discriminate].
  symmetry. apply prefixb_long_eq; assumption.
Qed.

Lemma pord_proper a b : prefixb a b = true -> length a < length b -> exists d, pord a b = Some d.
Proof. intros H Hl. eexists. apply pord_spec. auto. Qed.

Lemma pord_not_None a b : prefixb a b = true -> prefixb b a = false -> pord a b <> None.
Proof. intros H Hn E. rewrite (pord_None_prefix a b H E), prefixb_refl in Hn. discriminate. Qed.

Lemma children_disjoint p (d d' : bool) q1 q2 y : d <> d' ->
  prefixb (p ++ [d]) q1 = true -> prefixb (p ++ [d']) q2 = true ->
  prefixb q1 y = true -> prefixb q2 y = true -> False.
Proof.
  intros Hd H1 H2 H3 H4. apply Hd.
  rewrite <- (prefixb_snoc_nth p d y (prefixb_trans _ _ _ H1 H3)).
  apply (prefixb_snoc_nth p d' y (prefixb_trans _ _ _ H2 H4)).
Qed.

Lemma siblings_disjoint p q1 q2 y :
  prefixb (p ++ [false]) q1 = true -> prefixb (p ++ [true]) q2 = true ->
  prefixb q1 y = true -> prefixb q2 y = true -> False.
Proof. apply children_disjoint. discriminate. Qed.

Lemma lcp_branch : forall p (d : bool) u v,
  prefixb (p ++ [d]) u = true -> prefixb (p ++ [negb d]) v = true -> lcp u v = p.
Proof.
  induction p as [|h p IH]; intros d [|hu u] [|hv v] Hu Hv; cbn [app prefixb lcp] in *; try discriminate.
  - destruct d, hu, hv; try discriminate; reflexivity.
  - apply andb_true_iff in Hu, Hv. destruct Hu as [Eu Hu], Hv as [Ev Hv]. apply eqb_prop in Eu, Ev. subst hu hv.
    rewrite eqb_reflx. f_equal. exact (IH d u v Hu Hv).
Qed.

Lemma lex_cmp_refl a : lex_cmp a a = Eq.
Proof. induction a as [|[] a IH]; simpl; auto. Qed.

Lemma lex_cmp_eq a b : lex_cmp a b = Eq <-> a = b.
Proof.
  revert b; induction a as [|x a IH]; intros [|y b]; simpl; split; try congruence; auto.
  - destruct x, y; try discriminate; intros H; apply IH in H; congruence.
  - intros H; inversion H; subst. destruct y; apply IH; reflexivity.
Qed.

Lemma lex_cmp_app x y r1 r2 :
  length x = length y ->
  lex_cmp (x ++ r1) (y ++ r2) = match lex_cmp x y with Eq => lex_cmp r1 r2 | c => c end.
Proof.
  revert y; induction x as [|a x IH]; intros [|b y] Hl; simpl in Hl; try lia; [reflexivity|].
  simpl. destruct a, b; auto.
Qed.

Lemma lex_cmp_app_same p u v : lex_cmp (p ++ u) (p ++ v) = lex_cmp u v.
Proof. rewrite lex_cmp_app, lex_cmp_refl; reflexivity. Qed.
