(* C14: parallel insertion.  The implementation inserts below an interior node by handling the two
   children independently - the left one in a spawned task, the right one in the current task - and
   joins them before it writes the node itself.  The model's insertion is a pure function, so the
   VALUES the two sides compute cannot depend on their relative timing; what a parallel run can
   change is the ORDER in which the node records of the two sides reach the shared store.

   Theorems: in a well-formed subtree the node labels below the left child and below the right child
   are disjoint (they differ in the bit that follows the parent's label); writes to disjoint key sets
   commute under every interleaving - the final store is that of the sequential run, and a key is
   not changed by any list of writes to other keys (so whatever part of the other side's writes has
   been applied, a side finds in its own keys what it wrote).  Hence the order of the two sides'
   record writes is immaterial.  (That each side touches only records of its own subtree is what the
   configuration matrix validates on the code: every parallelism setting against the sequential run.) *)
From Coq Require Import List Bool Arith NArith Lia.
From Akd Require Import Bits NodeLabel Tree TreeFacts.
Import ListNotations.
Local Open Scope nat_scope.

Fixpoint node_labels (t : tree) : list nlabel :=
  match t with
  | Leaf l _ _ => [l]
  | Node l _ _ a b =>
    l :: (match a with Some c => node_labels c | None => [] end) ++ (match b with Some c => node_labels c | None => [] end)
  end.

Lemma labels_extend_root : forall t, wf_sub t = true ->
  forall l, In l (node_labels t) -> prefixb (bits_of (tlabel t)) (bits_of l) = true.
Proof.
  induction t as [l v e|l le mde a b IHa IHb] using tree_ind'; intros W x Hx.
  - destruct Hx as [<-|[]]. apply prefixb_refl.
  - cbn [node_labels] in Hx. destruct Hx as [<-|Hx]; [apply prefixb_refl|].
    destruct (wf_sub_node _ _ _ _ _ W) as (ca & cb & -> & -> & _ & _ & Pa & Pb & Wa & Wb).
    apply in_app_or in Hx. cbn [tlabel]. destruct Hx as [Hx|Hx].
    + eapply prefixb_trans; [exact (pord_below _ _ _ Pa) | apply (IHa ca eq_refl Wa x Hx)].
    + eapply prefixb_trans; [exact (pord_below _ _ _ Pb) | apply (IHb cb eq_refl Wb x Hx)].
Qed.

Theorem sides_disjoint l le mde a b :
  wf_sub (Node l le mde (Some a) (Some b)) = true ->
  forall x y, In x (node_labels a) -> In y (node_labels b) -> bits_of x <> bits_of y.
Proof.
  intros W x y Hx Hy E.
  destruct (wf_sub_node _ _ _ _ _ W) as (a' & b' & [= <-] & [= <-] & _ & _ & Pa & Pb & Wa & Wb).
  apply (siblings_disjoint _ _ _ (bits_of x) (pord_prefix _ _ _ Pa) (pord_prefix _ _ _ Pb)).
  - exact (labels_extend_root a Wa x Hx).
  - rewrite E. exact (labels_extend_root b Wb y Hy).
Qed.

Section Store.
  Variable V : Type.
  Definition kstore := bits -> option V.
  Definition put (st : kstore) (k : bits) (v : V) : kstore := fun k' => if bits_eqb k' k then Some v else st k'.
  Definition apply_writes (ws : list (bits * V)) (st : kstore) : kstore := fold_left (fun s w => put s (fst w) (snd w)) ws st.

  Inductive interleave : list (bits * V) -> list (bits * V) -> list (bits * V) -> Prop :=
  | il_nil : interleave [] [] []
  | il_left x l1 l2 l : interleave l1 l2 l -> interleave (x :: l1) l2 (x :: l)
  | il_right y l1 l2 l : interleave l1 l2 l -> interleave l1 (y :: l2) (y :: l).

  Definition keys (ws : list (bits * V)) : list bits := map fst ws.

  Lemma apply_writes_cons k0 v0 ws st : apply_writes ((k0, v0) :: ws) st = apply_writes ws (put st k0 v0).
  Proof. reflexivity. Qed.

  Lemma apply_writes_other ws : forall st k, ~ In k (keys ws) -> apply_writes ws st k = st k.
  Proof.
    induction ws as [|[k0 v0] ws IH]; intros st k Hk; [reflexivity|].
    rewrite apply_writes_cons, IH by (intros H; apply Hk; right; exact H). unfold put.
    destruct (bits_eqb k k0) eqn:E; [|reflexivity]. apply bits_eqb_eq in E. exfalso. apply Hk. left. cbn. congruence.
  Qed.

  Lemma apply_writes_ext ws : forall st st' k, st k = st' k -> apply_writes ws st k = apply_writes ws st' k.
  Proof.
    induction ws as [|[k0 v0] ws IH]; intros st st' k H; [exact H|]. rewrite !apply_writes_cons.
    apply (IH (put st k0 v0) (put st' k0 v0) k). unfold put. destruct (bits_eqb k k0); [reflexivity | exact H].
  Qed.

  Lemma apply_writes_app w1 w2 st : apply_writes (w1 ++ w2) st = apply_writes w2 (apply_writes w1 st).
  Proof. unfold apply_writes. apply fold_left_app. Qed.

  Lemma interleave_key w1 w2 w : interleave w1 w2 w ->
    (forall k, In k (keys w1) -> ~ In k (keys w2)) ->
    forall st k,
      apply_writes w st k =
      if existsb (bits_eqb k) (keys w1) then apply_writes w1 st k
      else apply_writes w2 st k.
  Proof.
    unfold keys. induction 1 as [|[k0 v0] l1 l2 l Hi IH|[k0 v0] l1 l2 l Hi IH]; intros Hd st k.
    - reflexivity.
    - rewrite !apply_writes_cons. cbn [fst map existsb].
      rewrite IH by (intros k' Hk'; apply Hd; right; exact Hk').
      destruct (bits_eqb k k0) eqn:E; cbn [orb].
      + apply bits_eqb_eq in E. subst k0.
        destruct (existsb (bits_eqb k) (map fst l1)) eqn:Ex; [reflexivity|].
        (* k is written by the left side only: the right side leaves it alone *)
        rewrite apply_writes_other by (unfold keys; apply Hd; left; reflexivity).
        symmetry. apply apply_writes_other. unfold keys. intros Hin. apply existsb_bits_eqb in Hin. congruence.
      + destruct (existsb (bits_eqb k) (map fst l1)); [reflexivity|].
        apply apply_writes_ext. unfold put. rewrite E. reflexivity.
    - rewrite !apply_writes_cons.
      rewrite IH by (intros k' Hk' Hin; apply (Hd k' Hk'); right; exact Hin).
      destruct (existsb (bits_eqb k) (map fst l1)) eqn:Ex; [|reflexivity].
      apply apply_writes_ext. unfold put. destruct (bits_eqb k k0) eqn:E; [|reflexivity].
      apply bits_eqb_eq in E. subst k0. exfalso. apply existsb_bits_eqb in Ex. apply (Hd k Ex). left. reflexivity.
  Qed.

  Theorem disjoint_writes_commute w1 w2 w st :
    interleave w1 w2 w -> (forall k, In k (keys w1) -> ~ In k (keys w2)) ->
    forall k, apply_writes w st k = apply_writes (w1 ++ w2) st k.
  Proof.
    intros Hi Hd k. rewrite (interleave_key w1 w2 w Hi Hd st k), apply_writes_app.
    destruct (existsb (bits_eqb k) (keys w1)) eqn:Ex.
    - apply existsb_bits_eqb in Ex. symmetry. apply apply_writes_other. apply Hd. exact Ex.
    - apply apply_writes_ext. symmetry. apply apply_writes_other. intros Hin. apply existsb_bits_eqb in Hin. congruence.
  Qed.

  Theorem own_keys_unaffected w_other st k : ~ In k (keys w_other) -> apply_writes w_other st k = st k.
  Proof. apply apply_writes_other. Qed.
End Store.

(* C14: the record writes of the two sides of an interior node, in any interleaved order, leave the
   store of the sequential run *)
Theorem parallel_sides_as_sequential (V : Type) l le mde a b (wa wb w : list (bits * V)) st :
  wf_sub (Node l le mde (Some a) (Some b)) = true ->
  (forall k, In k (keys V wa) -> exists x, In x (node_labels a) /\ k = bits_of x) ->
  (forall k, In k (keys V wb) -> exists y, In y (node_labels b) /\ k = bits_of y) ->
  interleave V wa wb w ->
  forall k, apply_writes V w st k = apply_writes V (wa ++ wb) st k.
Proof.
  intros W Ha Hb Hi. apply (disjoint_writes_commute V wa wb w st Hi).
  intros k Hka Hkb. destruct (Ha k Hka) as (x & Hx & ->). destruct (Hb _ Hkb) as (y & Hy & E).
  exact (sides_disjoint l le mde a b W x y Hx Hy E).
Qed.

(* the premise has models: the two-leaf tree with the labels 0^256 and 1 0^255 *)
Example sides_premise_sat :
  let a := Leaf (nl_of_bits (repeat false 256)) [] 1%N in
  let b := Leaf (nl_of_bits (true :: repeat false 255)) [] 1%N in
  wf_sub (Node nl_root 1%N 1%N (Some a) (Some b)) = true /\
  node_labels a <> [] /\ node_labels b <> [].
Proof. vm_compute. repeat split; discriminate. Qed.
