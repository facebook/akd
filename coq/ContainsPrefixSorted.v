(* C17, `AzksElementSet::contains_prefix`: on a sorted set of canonical labels of one length and a
   canonical prefix not longer than them the search form answers exactly what the `any` form
   answers.  The search is complete for every comparator that is monotone (Less, then Equal, then
   Greater) along the slice - the precondition the toolchain documents for `binary_search_by`;
   the comparator of the code is `lex_cmp (first |p| bits of the element) p`, monotone on a set
   sorted by its bit strings. *)
From Coq Require Import List Bool Arith NArith Lia.
From Akd Require Import Bits NodeLabel NodeLabelFacts ElemSet ElemSetFacts ContainsPrefix InsertRefine.
Import ListNotations.
Local Open Scope nat_scope.

Definition crank (c : comparison) : nat := match c with Lt => 0 | Eq => 1 | Gt => 2 end.

Inductive mono : list comparison -> Prop :=
| mono_nil : mono []
| mono_cons k ks : (forall k', In k' ks -> crank k <= crank k') -> mono ks -> mono (k :: ks).

Lemma mono_nth ks : mono ks -> forall i j c, i <= j -> j < length ks ->
  crank (nth i ks c) <= crank (nth j ks c).
Proof.
  induction 1 as [|k ks Hk Hm IH]; intros [|i] [|j] c Hij Hj; cbn [nth length] in *; try lia.
  - apply Hk, nth_In. lia.
  - apply IH; lia.
Qed.

Lemma mono_prefix_closed {A} (f : A -> comparison) l :
  mono (map f l) -> prefix_closed (fun x => not_gt (f x)) l.
Proof.
  induction l as [|x l IH]; cbn [map prefix_closed]; [trivial|]. inversion 1 as [|k ks Hk Hm]; subst.
  split; [|apply IH, Hm]. intros Hx. apply forallb_forall. intros y Hy.
  specialize (Hk (f y) (in_map f l y Hy)).
  destruct (f x); try discriminate. destruct (f y); cbn in Hk; [lia | lia | reflexivity].
Qed.

Theorem binary_search_complete_mono {A} (f : A -> comparison) d l :
  mono (map f l) -> (exists x, In x l /\ f x = Eq) -> fst (binary_search_by f d l) = true.
Proof.
  intros Hm [x [Hx Hfx]].
  destruct (prefix_closed_boundary _ d l (mono_prefix_closed f l Hm)) as [HB _].
  set (k := length (filter _ l)) in HB. pose proof HB as (Hk & Ht & Hf).
  destruct (In_nth l x d Hx) as (i & Hi & Ei).
  assert (Hik : i < k).
  { destruct (Nat.lt_ge_cases i k) as [|Hge]; [assumption|].
    specialize (Hf i Hge Hi). cbv beta in Hf. rewrite Ei, Hfx in Hf. discriminate. }
  (* the last element that is not Greater comes no earlier than an Equal one *)
  assert (HEq : f (nth (pred k) l d) = Eq).
  { pose proof (mono_nth _ Hm i (pred k) (f d)) as Hc. rewrite map_length, !map_nth, Ei, Hfx in Hc.
    specialize (Ht (pred k) ltac:(lia)). cbv beta in Ht.
    destruct (f (nth (pred k) l d)); [reflexivity | cbn in Hc; lia | discriminate]. }
  assert (Hne : l <> []) by (intros E; rewrite E in Hx; exact Hx).
  rewrite (binary_search_by_not_gt f d l k HB Hne), HEq. reflexivity.
Qed.

Definition key (q c : bits) : comparison := lex_cmp (firstn (length q) c) q.

Lemma lex_rank_mono : forall a b q, lex_cmp a b <> Gt -> crank (lex_cmp a q) <= crank (lex_cmp b q).
Proof.
  induction a as [|x a IH]; intros [|y b] [|z q] H; cbn [lex_cmp crank] in *; try lia; try congruence.
  destruct x, y, z; cbn [crank]; try lia; try congruence; try (apply IH; exact H).
  (* a continues with 0 like q, b with 1: whatever a answers, b answers Greater *)
  destruct (lex_cmp a q); cbn [crank]; lia.
Qed.

Lemma key_mono q c1 c2 :
  length c1 = length c2 -> lex_cmp c1 c2 <> Gt -> crank (key q c1) <= crank (key q c2).
Proof.
  intros Hl Hc. unfold key. apply lex_rank_mono. intros Hg. apply Hc.
  rewrite <- (firstn_skipn (length q) c1), <- (firstn_skipn (length q) c2).
  rewrite lex_cmp_app by (rewrite !firstn_length; lia).
  rewrite Hg. reflexivity.
Qed.

(* sorted, equal labels allowed (what sort_unstable leaves when labels repeat) *)
Inductive sorted_le : list elem -> Prop :=
| sle_nil : sorted_le []
| sle_cons x l :
    (forall y, In y l -> lex_cmp (bits_of (e_label x)) (bits_of (e_label y)) <> Gt) ->
    sorted_le l -> sorted_le (x :: l).

Lemma sorted_bits_le l : sorted_bits l -> sorted_le l.
Proof.
  induction 1 as [|x l Hhd Htl IH]; constructor; [|exact IH].
  intros y Hy. rewrite (Hhd y Hy). discriminate.
Qed.

Definition cpf (p : nlabel) (c : elem) : comparison :=
  if (llen p =? 0)%N || is_prefix_of p (e_label c) then Eq
  else bytes_cmp (lval (e_label c)) (lval p).

Lemma cpf_is_key p x :
  WF p -> WF (e_label x) -> canonical p = true -> canonical (e_label x) = true ->
  (llen p <= llen (e_label x))%N ->
  cpf p x = key (bits_of p) (bits_of (e_label x)).
Proof.
  intros Hp Hx Cp Cx Hle. unfold cpf, key.
  pose proof (length_bits_of p Hp) as Lq. pose proof (length_bits_of (e_label x) Hx) as Lc.
  destruct (N.eqb_spec (llen p) 0) as [Hz|Hz]; cbn [orb].
  - rewrite (bits_of_nil p Hz). reflexivity.
  - rewrite (is_prefix_of_spec p (e_label x) Hp Hx).
    destruct (prefixb (bits_of p) (bits_of (e_label x))) eqn:Epre.
    + apply prefixb_firstn_iff in Epre. rewrite Epre, lex_cmp_refl. reflexivity.
    + destruct (WF_parts p Hp) as (A1 & A2 & A3). destruct (WF_parts (e_label x) Hx) as (B1 & B2 & B3).
      rewrite bytes_cmp_bits by (assumption || lia).
      rewrite (canonical_val_bits p Hp Cp), (canonical_val_bits (e_label x) Hx Cx).
      set (q := bits_of p) in *. set (c := bits_of (e_label x)) in *.
      rewrite <- (firstn_skipn (length q) c) at 1. rewrite <- app_assoc.
      rewrite lex_cmp_app by (rewrite firstn_length; lia).
      destruct (lex_cmp (firstn (length q) c) q) eqn:Ek; try reflexivity.
      apply lex_cmp_eq in Ek. rewrite <- Ek, prefixb_firstn in Epre. discriminate.
Qed.

Lemma sorted_cpf_mono p : forall l,
  WF p -> canonical p = true -> elabs_ok l -> sorted_le l -> same_len l ->
  (forall x, In x l -> (llen p <= llen (e_label x))%N) ->
  mono (map (cpf p) l).
Proof.
  intros l Hp Cp. induction l as [|x l IH]; intros Hok Hs Hsl Hlen; cbn [map]; [constructor|].
  inversion Hs as [|x' l' Hhd Htl]; subst x' l'.
  destruct Hsl as [len Hsl].
  constructor.
  - intros k' Hk'. apply in_map_iff in Hk'. destruct Hk' as [y [Ey Hy]]. subst k'.
    destruct (Hok x (or_introl eq_refl)) as [Wx Cx]. destruct (Hok y (or_intror Hy)) as [Wy Cy].
    rewrite (cpf_is_key p x), (cpf_is_key p y); try assumption;
      try (apply Hlen; (left; reflexivity) || (right; exact Hy)).
    apply key_mono; [|apply Hhd; exact Hy].
    rewrite !length_bits_of by assumption.
    rewrite (Hsl x (or_introl eq_refl)), (Hsl y (or_intror Hy)). reflexivity.
  - apply IH; [| exact Htl | exists len |]; intros z Hz;
      [apply Hok | apply Hsl | apply Hlen]; right; exact Hz.
Qed.

Theorem contains_prefix_sorted_complete_on_sets p l :
  WF p -> canonical p = true -> elabs_ok l -> sorted_le l -> same_len l ->
  (forall x, In x l -> (llen p <= llen (e_label x))%N) ->
  existsb (extends p) l = true ->
  eset_contains_prefix (BinarySearchable l) p = true.
Proof.
  intros Hp Cp Hok Hs Hsl Hlen Hex. cbn [eset_contains_prefix].
  change (fst (binary_search_by (cpf p) dummy_elem l) = true).
  apply binary_search_complete_mono; [apply sorted_cpf_mono; assumption|].
  apply existsb_exists in Hex. destruct Hex as [x [Hx He]]. exists x. split; [exact Hx|].
  unfold cpf, extends in *. rewrite (is_prefix_of_spec p (e_label x) Hp (proj1 (Hok x Hx))), He.
  rewrite orb_true_r. reflexivity.
Qed.

Theorem contains_prefix_sorted_eq_unsorted_le p l :
  WF p -> canonical p = true -> elabs_ok l -> sorted_le l -> same_len l ->
  (forall x, In x l -> (llen p <= llen (e_label x))%N) ->
  eset_contains_prefix (BinarySearchable l) p = eset_contains_prefix (Unsorted l) p.
Proof.
  intros Hp Cp Hok Hs Hsl Hlen.
  assert (Hwf : forall x, In x l -> WF (e_label x)) by (intros x Hx; apply (Hok x Hx)).
  rewrite (contains_prefix_unsorted p l Hp Hwf).
  destruct (existsb (extends p) l) eqn:Ex.
  - apply contains_prefix_sorted_complete_on_sets; assumption.
  - destruct (eset_contains_prefix (BinarySearchable l) p) eqn:Es; [|reflexivity].
    exfalso. destruct (contains_prefix_sorted_sound p l Hp Hwf Es) as [[Hz Hne]|[He|[x [Hx [_ Hlt]]]]].
    + destruct l as [|x r]; [congruence|].
      cbn [existsb] in Ex. apply orb_false_iff in Ex. destruct Ex as [Ex _].
      unfold extends in Ex. rewrite (bits_of_nil p Hz) in Ex. discriminate.
    + congruence.
    + specialize (Hlen x Hx). lia.
Qed.

Corollary contains_prefix_sorted_eq_unsorted p l :
  WF p -> canonical p = true -> elabs_ok l -> sorted_bits l -> same_len l ->
  (forall x, In x l -> (llen p <= llen (e_label x))%N) ->
  eset_contains_prefix (BinarySearchable l) p = eset_contains_prefix (Unsorted l) p.
Proof.
  intros Hp Cp Hok Hs. apply contains_prefix_sorted_eq_unsorted_le; try assumption.
  apply sorted_bits_le. exact Hs.
Qed.
