(* C14: the tree does not depend on the order in which a batch of (equal-length, distinct) leaves is
   handed to batch_insert: the element set is sorted first and the sorted list is unique. *)
From Coq Require Import List Bool Arith NArith Lia Permutation.
From Akd Require Import Bits NodeLabel ElemSet LabelOrder Tree Insert.
Import ListNotations.
Open Scope N_scope.

Definition lab_lt (a b : elem) : Prop := nl_cmp (e_label a) (e_label b) = Lt.

Inductive sorted_lt : list elem -> Prop :=
| sl_nil : sorted_lt []
| sl_cons x l : (forall y, In y l -> lab_lt x y) -> sorted_lt l -> sorted_lt (x :: l).

Definition distinct_labels (l : list elem) : Prop :=
  NoDup (map e_label l) /\ forall x, In x l -> length (lval (e_label x)) = 32%nat.

Lemma insert_sorted_perm x l : Permutation (insert_sorted x l) (x :: l).
Proof.
  induction l as [|y l IH]; cbn [insert_sorted]; [apply Permutation_refl|].
  destruct (elem_leb x y); [apply Permutation_refl|].
  eapply Permutation_trans; [apply perm_skip; exact IH|]. apply perm_swap.
Qed.

Lemma sort_elems_perm l : Permutation (sort_elems l) l.
Proof.
  unfold sort_elems. induction l as [|x l IH]; cbn [fold_right]; [constructor|].
  eapply Permutation_trans; [apply insert_sorted_perm|]. constructor. exact IH.
Qed.

Lemma sort_elems_in l x : In x (sort_elems l) <-> In x l.
Proof. split; apply Permutation_in; [|apply Permutation_sym]; apply sort_elems_perm. Qed.

Lemma insert_sorted_sorted x l : sorted_lt l -> (forall y, In y l -> e_label y <> e_label x) ->
  sorted_lt (insert_sorted x l).
Proof.
  induction 1 as [|z l Hz Hs IH]; intros Hne; cbn [insert_sorted].
  - constructor; [intros y []|constructor].
  - unfold elem_leb. destruct (nl_cmp (e_label x) (e_label z)) eqn:E.
    + exfalso. apply nl_cmp_eq_iff in E. apply (Hne z); [now left | auto].
    + constructor; [|now constructor]. intros y [<-|Hy]; [exact E|]. eapply nl_cmp_lt_trans; [exact E|apply Hz; exact Hy].
    + constructor.
      * intros y Hy. apply (Permutation_in _ (insert_sorted_perm x l)) in Hy. destruct Hy as [<-|Hy]; [|auto].
        unfold lab_lt. rewrite nl_cmp_opp, E. reflexivity.
      * apply IH. intros y Hy. apply Hne. now right.
Qed.

Lemma sort_elems_sorted l : NoDup (map e_label l) -> sorted_lt (sort_elems l).
Proof.
  unfold sort_elems. induction l as [|x l IH]; intros Hd; cbn [fold_right]; [constructor|].
  cbn [map] in Hd. apply NoDup_cons_iff in Hd. destruct Hd as [Hn Hd]. apply insert_sorted_sorted; [apply IH; exact Hd|].
  intros y Hy Heq. apply (proj1 (sort_elems_in l y)) in Hy. apply Hn. rewrite <- Heq. apply in_map. exact Hy.
Qed.

Lemma lab_lt_irrefl x : ~ lab_lt x x.
Proof.
  unfold lab_lt. intros H. pose proof (nl_cmp_opp (e_label x) (e_label x)) as A. rewrite H in A. discriminate.
Qed.

Lemma sorted_lt_unique l1 : forall l2, sorted_lt l1 -> sorted_lt l2 -> (forall x, In x l1 <-> In x l2) -> l1 = l2.
Proof.
  induction l1 as [|x l1 IH]; intros l2 S1 S2 Hin.
  - destruct l2 as [|y l2]; [reflexivity|]. exfalso. apply (Hin y). now left.
  - destruct l2 as [|y l2]; [exfalso; apply (Hin x); now left|].
    inversion S1 as [|? ? Hx S1']; subst. inversion S2 as [|? ? Hy S2']; subst.
    assert (Exy : x = y).
    { destruct (proj1 (Hin x) (or_introl eq_refl)) as [E|Hx2]; [auto|].
      destruct (proj2 (Hin y) (or_introl eq_refl)) as [E|Hy1]; [auto|].
      exfalso. specialize (Hx y Hy1). specialize (Hy x Hx2). unfold lab_lt in *.
      rewrite nl_cmp_opp, Hy in Hx. discriminate. }
    subst y. f_equal. apply IH; auto. intros z. split; intros Hz.
    + destruct (proj1 (Hin z) (or_intror Hz)) as [E|H]; [|exact H]. subst z. exfalso. exact (lab_lt_irrefl x (Hx x Hz)).
    + destruct (proj2 (Hin z) (or_intror Hz)) as [E|H]; [|exact H]. subst z. exfalso. exact (lab_lt_irrefl x (Hy x Hz)).
Qed.

Theorem sort_elems_permutation l l' : Permutation l l' -> NoDup (map e_label l) -> sort_elems l = sort_elems l'.
Proof.
  intros HP HD. apply sorted_lt_unique.
  - apply sort_elems_sorted. exact HD.
  - apply sort_elems_sorted. eapply Permutation_NoDup; [apply Permutation_map; exact HP | exact HD].
  - intros x. rewrite !sort_elems_in. split; apply Permutation_in; [|apply Permutation_sym]; exact HP.
Qed.

Lemma forallb_perm {A} (p : A -> bool) l l' : Permutation l l' -> forallb p l = forallb p l'.
Proof. induction 1; simpl; auto; [now rewrite IHPermutation|destruct (p x), (p y); reflexivity|congruence]. Qed.

Lemma eset_from_uniform l (len : N) : l <> [] -> (forall x, In x l -> llen (e_label x) = len) ->
  eset_from l = BinarySearchable (sort_elems l).
Proof.
  destruct l as [|x r]; [congruence|]. intros _ H. unfold eset_from.
  replace (forallb _ (x :: r)) with true; [reflexivity|]. symmetry. apply forallb_forall.
  intros y Hy. rewrite (H y Hy), (H x (or_introl eq_refl)). apply N.eqb_refl.
Qed.

(* C14: inserting the same set of equal-length, distinct leaves in any order yields the same tree *)
Theorem batch_insert_order empty st elems elems' (len : N) :
  Permutation elems elems' -> distinct_labels elems ->
  (forall x, In x elems -> llen (e_label x) = len) ->
  batch_insert empty st elems = batch_insert empty st elems'.
Proof.
  intros HP HD Hlen. unfold batch_insert. destruct st as [[root latest] num].
  assert (Hset : eset_from elems = eset_from elems').
  { destruct elems as [|x l]; [apply Permutation_nil in HP; subst; reflexivity|].
    rewrite (eset_from_uniform (x :: l) len) by (discriminate || exact Hlen).
    rewrite (eset_from_uniform elems' len).
    - f_equal. apply sort_elems_permutation; [exact HP | apply HD].
    - intros ->. apply Permutation_sym, Permutation_nil in HP. discriminate.
    - intros y Hy. apply Hlen. eapply Permutation_in; [apply Permutation_sym; exact HP | exact Hy]. }
  rewrite Hset. reflexivity.
Qed.
