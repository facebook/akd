(* How a node record is written (TreeNode::write_to_storage, tree_node.rs): the node of the epoch being
   built becomes the latest version; the previous version is taken from the stored record AS OF THE
   EPOCH BEFORE - so that writing the same node twice in one epoch, or again after an attempt at that
   epoch died half-way, never rotates the committed version out.

   Theorems: every record so written at epoch E+1 over a store whose records are of epochs <= E has
   the shape the reader theorems of C11 / C13 assume ([commit_shape]); writing again over the record
   of a dead attempt gives exactly the record a first attempt would have written; taking the previous
   version as of the node's OWN epoch (a seeded change) is refuted. *)
From Coq Require Import List Bool Arith NArith Lia.
From Akd Require Import Bits NodeLabel NodeLabelFacts Tree Store StoreFacts.
Import ListNotations.
Open Scope N_scope.

(* [own_epoch] = true is the variant that selects as of the node's own epoch *)
Definition rotate (own_epoch : bool) (stored : option srec) (is_new : bool) (l : nlabel) (n : snode) : option srec :=
  let target := if own_epoch then sn_le n else if 0 <? sn_le n then sn_le n - 1 else sn_le n in
  if is_new then Some (SR l n None)
  else match stored with
       | None => Some (SR l n None)
       | Some r =>
         match determine r target with
         | SOk p => Some (SR l n (Some p))
         | SNotFound => Some (SR l n None)
         | SOther => None
         end
       end.

Lemma snode_eqb_refl a : snode_eqb a a = true.
Proof.
  unfold snode_eqb. rewrite !N.eqb_refl, Bool.eqb_reflx. cbn [andb].
  assert (L : forall o, opt_label_eqb o o = true) by (intros [x|]; cbn; [apply nl_eqb_eq; reflexivity | reflexivity]).
  rewrite !L. cbn [andb]. apply bytes_eqb_eq. reflexivity.
Qed.
Lemma opt_snode_eqb_refl a : opt_snode_eqb a a = true.
Proof. destruct a; cbn; [apply snode_eqb_refl | reflexivity]. Qed.

(* the store before the commit: every record's latest version is of an epoch <= E *)
Definition store_at (base : lookup) (E : N) : Prop := forall l r, base l = Some r -> sr_label r = l /\ sn_le (sr_latest r) <= E.

Lemma rotate_over r E l n p : sn_le n = E + 1 -> determine r E = SOk p ->
  rotate false (Some r) false l n = Some (SR l n (Some p)).
Proof.
  intros Hn Hd. unfold rotate. rewrite Hn.
  assert (T : (if 0 <? E + 1 then E + 1 - 1 else E + 1) = E) by (destruct (N.ltb_spec 0 (E + 1)); lia).
  now rewrite T, Hd.
Qed.

Lemma determine_latest r E : sn_le (sr_latest r) <= E -> determine r E = SOk (sr_latest r).
Proof. intros H. unfold determine. destruct (N.ltb_spec E (sn_le (sr_latest r))); [lia | reflexivity]. Qed.

Theorem rotate_shape base E l n : store_at base E -> sn_le n = E + 1 ->
  forall r', rotate false (base l) (match base l with None => true | Some _ => false end) l n = Some r' ->
  commit_shape base E r' = true.
Proof.
  intros Hb Hn r' Hr. assert (L : E <? E + 1 = true) by (apply N.ltb_lt; lia).
  unfold commit_shape. destruct (base l) as [r|] eqn:Eb.
  - destruct (Hb l r Eb) as [Hl Hle]. rewrite (rotate_over r E l n _ Hn (determine_latest r E Hle)) in Hr.
    injection Hr as <-. cbn [sr_label sr_latest sr_prev]. rewrite Eb, Hn, L, opt_snode_eqb_refl. now apply N.leb_le.
  - injection Hr as <-. cbn [sr_label sr_latest sr_prev]. now rewrite Eb, Hn, L.
Qed.

(* writing again at the same epoch - over the record of the same transaction, or of an attempt at
   this epoch that died - gives the record a first write would have given *)
Theorem rotate_again base E l n1 n2 r r1 : store_at base E -> base l = Some r ->
  sn_le n1 = E + 1 -> sn_le n2 = E + 1 ->
  rotate false (Some r) false l n1 = Some r1 ->
  rotate false (Some r1) false l n2 = rotate false (Some r) false l n2.
Proof.
  intros Hb Eb H1 H2 Hr1. destruct (Hb l r Eb) as [_ Hle]. pose proof (determine_latest r E Hle) as Hd.
  rewrite (rotate_over r E l n1 _ H1 Hd) in Hr1. injection Hr1 as <-. rewrite (rotate_over r E l n2 _ H2 Hd).
  (* the record of the first write gives, as of E, its previous version: the committed one *)
  apply (rotate_over _ E); [exact H2|]. unfold determine. cbn [sr_latest sr_prev]. rewrite H1.
  destruct (N.ltb_spec E (E + 1)); [|lia]. destruct (N.ltb_spec E (sn_le (sr_latest r))); [lia | reflexivity].
Qed.

(* hence, with C11: whatever part of the dead attempt and of the retry has reached storage, readers as
   of epoch E are served the committed tree *)
Corollary retry_records_keep_shape base E l n1 n2 r r1 r2 : store_at base E -> base l = Some r ->
  sn_le n1 = E + 1 -> sn_le n2 = E + 1 ->
  rotate false (Some r) false l n1 = Some r1 -> rotate false (Some r1) false l n2 = Some r2 ->
  commit_shape base E r1 = true /\ commit_shape base E r2 = true.
Proof.
  intros Hb Eb H1 H2 Hr1 Hr2. rewrite (rotate_again base E l n1 n2 r r1 Hb Eb H1 H2 Hr1) in Hr2.
  split; [apply (rotate_shape base E l n1 Hb H1) | apply (rotate_shape base E l n2 Hb H2)]; now rewrite Eb.
Qed.

(* the variant that selects the previous version as of the node's own epoch: after a dead attempt the
   retry keeps the DEAD version as previous - the committed one is gone, and the record no longer has
   the shape the readers rely on *)
Definition sn0 (e : N) (h : N) : snode := SN e e true None None [h].
Theorem rotate_as_of_own_epoch_refuted :
  let l := nl_root in
  let base : lookup := fun k => if nl_eqb k l then Some (SR l (sn0 1 10) None) else None in
  exists r1 r2,
    rotate true (base l) false l (sn0 2 20) = Some r1 /\ rotate true (Some r1) false l (sn0 2 21) = Some r2 /\
    sr_prev r2 = Some (sn0 2 20) /\ commit_shape base 1 r2 = false /\
    node_at (overlay [r2] base) l 1 <> node_at base l 1.
Proof. eexists. eexists. vm_compute. repeat split; discriminate. Qed.

Example rotate_as_of_previous_epoch_same_case :
  let l := nl_root in
  let base : lookup := fun k => if nl_eqb k l then Some (SR l (sn0 1 10) None) else None in
  exists r1 r2,
    rotate false (base l) false l (sn0 2 20) = Some r1 /\ rotate false (Some r1) false l (sn0 2 21) = Some r2 /\
    sr_prev r2 = Some (sn0 1 10) /\ commit_shape base 1 r2 = true /\
    node_at (overlay [r2] base) l 1 = node_at base l 1.
Proof. eexists. eexists. vm_compute. repeat split. Qed.

Lemma find_rec_app w2 w1 l : find_rec (w2 ++ w1) l = match find_rec w2 l with Some r => Some r | None => find_rec w1 l end.
Proof.
  induction w2 as [|r w2 IH]; [reflexivity|]. cbn [app find_rec]. destruct (nl_eqb (sr_label r) l); [reflexivity | exact IH].
Qed.

Lemma overlay_overlay w2 w1 base l : overlay w2 (overlay w1 base) l = overlay (w2 ++ w1) base l.
Proof. unfold overlay. rewrite find_rec_app. destruct (find_rec w2 l); reflexivity. Qed.

(* records of a dead attempt and, on top of them, records of its retry: as far as any reader as of E
   can tell, nothing has happened *)
Theorem dead_attempts_and_retries_invisible fuel base E dead retry l :
  (forall r, In r dead -> commit_shape base E r = true) ->
  (forall r, In r retry -> commit_shape base E r = true) ->
  view fuel (overlay retry (overlay dead base)) E l = view fuel base E l /\
  (forall k, node_at (overlay retry (overlay dead base)) k E = node_at base k E).
Proof.
  intros Hd Hr.
  assert (Hn : forall k, node_at (overlay retry (overlay dead base)) k E = node_at base k E).
  { intros k. unfold node_at. rewrite overlay_overlay. apply (node_at_overlay base E (retry ++ dead)).
    intros r Hin. apply in_app_or in Hin. destruct Hin; auto. }
  split; [apply view_ext, Hn | exact Hn].
Qed.
