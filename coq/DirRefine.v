(* C01 at the directory level: under VRF outputs that are well-formed 256-bit labels and do not
   collide, every publish hands the tree a batch of distinct labels that are not in the tree yet;
   hence (InsertRefine) the directory's tree is always the specification trie over its leaves,
   which each changing publish extends by the leaves of the elements it derives ([step]), and the
   returned root hash is its hash. *)
From Coq Require Import List Bool NArith Lia Permutation.
From Akd Require Import NodeLabel NodeLabelFacts ElemSet Hashing Tree TreeFacts TreeComplete Spec SpecFacts InsertRefine NonMemComplete Directory DirFacts.
Import ListNotations.
Open Scope N_scope.

Section DirRefine.
  Variable cfg : config.
  Variable ck : bytes.
  Variable vrf_label : bytes -> bool -> N -> option nlabel.
  Variable vrf_proof : bytes -> bool -> N -> option bytes.
  Hypothesis Ce : canonical (c_empty_label cfg) = false.
  (* what the VRF layer provides (C18): 256-bit well-formed labels, no collisions *)
  Hypothesis vrf_good : forall l f v nl, vrf_label l f v = Some nl -> WF nl /\ canonical nl = true /\ llen nl = 256.
  Hypothesis vrf_inj : forall l f v l' f' v' nl, vrf_label l f v = Some nl -> vrf_label l' f' v' = Some nl -> l = l' /\ f = f' /\ v = v'.

  Notation publish := (publish cfg ck vrf_label).
  Notation derive_update := (derive_update cfg ck vrf_label).
  Notation derive_all := (derive_all cfg ck vrf_label).

  Definition ver (st : dstate) (l : bytes) : N :=
    match latest_state (d_states st) l (d_epoch st) with Some s => vr_version s | None => 0 end.

  Lemma ver_latest st l s : latest_state (d_states st) l (d_epoch st) = Some s -> ver st l = vr_version s.
  Proof using Type. unfold ver. intros ->. reflexivity. Qed.

  (* a label is in use: some version of [l] up to the current one (fresh) or below it (stale) *)
  Definition used (st : dstate) (nl : nlabel) : Prop :=
    exists l f v, vrf_label l f v = Some nl /\ 1 <= v /\ (if f : bool then v <= ver st l else v < ver st l).

  Record DirInv (st : dstate) : Prop := {
    di_tree : root_inv (d_epoch st) (d_tree st);
    di_epochs : forall s, In s (d_states st) -> vr_epoch s <= d_epoch st;
    di_versions : forall l s, latest_state (d_states st) l (d_epoch st) = Some s -> 1 <= vr_version s;
    di_leaves : forall y, In y (leaves (d_tree st)) -> used st (lf_label y);
    di_distinct : forall s s', In s (d_states st) -> In s' (d_states st) ->
                  vr_user s = vr_user s' -> vr_epoch s = vr_epoch s' -> s = s';
    di_ver_le : forall s, In s (d_states st) -> vr_version s <= vr_epoch s }.

  Lemma version_le_epoch st s : DirInv st -> In s (d_states st) -> vr_version s <= d_epoch st.
  Proof using Type. intros I Hs. exact (N.le_trans _ _ _ (di_ver_le st I s Hs) (di_epochs st I s Hs)). Qed.

  Lemma ver_le_epoch st l : DirInv st -> ver st l <= d_epoch st.
  Proof using Type.
    intros I. unfold ver. destruct (latest_state (d_states st) l (d_epoch st)) as [s|] eqn:El; [|apply N.le_0_l].
    exact (version_le_epoch st s I (proj1 (latest_state_max _ _ _ _ El))).
  Qed.

  Lemma unused_not_leaf st l f v nl : DirInv st -> vrf_label l f v = Some nl ->
    (if f : bool then ver st l < v else ver st l <= v) -> forall y, In y (leaves (d_tree st)) -> lf_label y <> nl.
  Proof using vrf_inj.
    intros I Hl Hv y Hy E. destruct (di_leaves st I y Hy) as (l' & f' & v' & Hv' & _ & Hb). rewrite E in Hv'.
    destruct (vrf_inj _ _ _ _ _ _ _ Hl Hv') as (<- & <- & <-). clear - Hv Hb. destruct f; lia.
  Qed.

  (* the elements a new value state comes with: its fresh leaf and, above version 1, the stale leaf of its predecessor *)
  Definition state_elems (n : vrec) (es : list elem) : Prop :=
    exists fl, vrf_label (vr_user n) true (vr_version n) = Some fl /\
      ((vr_version n = 1 /\ es = [El fl (fresh_value cfg ck fl (vr_version n) (vr_value n))]) \/
       (1 < vr_version n /\ exists sl, vrf_label (vr_user n) false (vr_version n - 1) = Some sl /\
          es = [El sl (c_stale_value cfg); El fl (fresh_value cfg ck fl (vr_version n) (vr_value n))])).

  Lemma state_elems_label n es x : state_elems n es -> In x es ->
    vrf_label (vr_user n) true (vr_version n) = Some (e_label x) \/
    (1 < vr_version n /\ vrf_label (vr_user n) false (vr_version n - 1) = Some (e_label x)).
  Proof using Type.
    intros (fl & Ef & [[_ ->]|(Hv & sl & Es & ->)]) Hx.
    - destruct Hx as [<-|[]]. left. exact Ef.
    - destruct Hx as [<-|[<-|[]]]; [right; split; [exact Hv | exact Es] | left; exact Ef].
  Qed.

  Lemma derive_update_cases st l v es ns :
    (forall s, latest_state (d_states st) l (d_epoch st) = Some s -> 1 <= vr_version s) ->
    derive_update st (l, v) = Some (es, ns) ->
    (es = [] /\ ns = []) \/
    exists n, ns = [n] /\ vr_user n = l /\ vr_epoch n = d_epoch st + 1 /\ vr_version n = ver st l + 1 /\ state_elems n es.
  Proof using Type.
    intros Hv. unfold Directory.derive_update, ver, state_elems.
    destruct (latest_state (d_states st) l (d_epoch st)) as [s|].
    - destruct (bytes_eqb (vr_value s) v); [intros [= <- <-]; left; auto|].
      destruct (vrf_label l false (vr_version s)) as [sl|] eqn:Es; [|discriminate].
      destruct (vrf_label l true (vr_version s + 1)) as [fl|] eqn:Ef; [|discriminate].
      intros [= <- <-]. specialize (Hv s eq_refl). right. eexists. split; [reflexivity|]. cbn [vr_user vr_epoch vr_version vr_value].
      repeat split. exists fl. split; [exact Ef|]. right. split; [clear - Hv; lia|]. exists sl. rewrite N.add_sub. auto.
    - destruct (vrf_label l true 1) as [nl|] eqn:Ef; [|discriminate].
      intros [= <- <-]. right. eexists. split; [reflexivity|]. cbn [vr_user vr_epoch vr_version vr_value].
      repeat split. exists nl. auto.
  Qed.

  Lemma has_dup_cons l r : has_dup (l :: r) = false -> ~ In l r /\ has_dup r = false.
  Proof using Type.
    cbn [has_dup]. intros H. apply orb_false_iff in H. destruct H as [H1 H2]. split; [|exact H2].
    intros Hin. assert (existsb (bytes_eqb l) r = true); [|congruence].
    apply existsb_exists. exists l. split; [exact Hin | apply bytes_eqb_eq; reflexivity].
  Qed.

  Lemma derive_all_spec st : forall upds elems news,
    (forall l s, latest_state (d_states st) l (d_epoch st) = Some s -> 1 <= vr_version s) ->
    has_dup (map fst upds) = false -> derive_all st upds = Some (elems, news) ->
    exists ess, Forall2 state_elems news ess /\ elems = concat ess /\
      (forall n, In n news -> In (vr_user n) (map fst upds) /\ vr_epoch n = d_epoch st + 1 /\ vr_version n = ver st (vr_user n) + 1) /\
      NoDup (map vr_user news).
  Proof using Type.
    induction upds as [|[l v] upds IH]; intros elems news Hv Hd H.
    - cbn in H. injection H as <- <-. exists []. split; [constructor|]. split; [reflexivity|]. split; [intros n [] | constructor].
    - cbn [Directory.derive_all] in H.
      destruct (derive_update st (l, v)) as [[e1 s1]|] eqn:E1; [|discriminate].
      destruct (derive_all st upds) as [[e2 s2]|] eqn:E2; [|discriminate]. injection H as <- <-.
      cbn [map fst] in Hd. destruct (has_dup_cons _ _ Hd) as [Hnotin Hd'].
      destruct (IH e2 s2 Hv Hd' eq_refl) as (ess & F & -> & A3 & A4).
      assert (A3' : forall n, In n s2 -> In (vr_user n) (l :: map fst upds) /\ vr_epoch n = d_epoch st + 1 /\ vr_version n = ver st (vr_user n) + 1).
      { intros n Hn. destruct (A3 n Hn) as (a & b & c). split; [right; exact a | split; assumption]. }
      destruct (derive_update_cases st l v e1 s1 (Hv l) E1) as [[-> ->]|(n & -> & Hu & He & Hver & Hse)].
      + exists ess. split; [exact F|]. split; [reflexivity|]. split; [exact A3' | exact A4].
      + exists (e1 :: ess). split; [constructor; assumption|]. split; [reflexivity|]. split.
        * intros n0 [<-|Hn0]; [|exact (A3' n0 Hn0)]. rewrite Hu. split; [left; reflexivity | split; assumption].
        * cbn [app map]. constructor; [|exact A4]. intros Hin. apply in_map_iff in Hin. destruct Hin as (m & Em & Hm).
          apply Hnotin. rewrite <- Hu, <- Em. apply (A3 m Hm).
  Qed.

  (* distinct users and the two kinds of label never collide: the derived elements have distinct labels *)
  Lemma elems_labels_nodup news ess : Forall2 state_elems news ess -> NoDup (map vr_user news) -> NoDup (map e_label (concat ess)).
  Proof using vrf_inj.
    induction 1 as [|n es news ess Hse F IH]; intros Hu; [constructor|]. cbn [concat map] in *. inversion Hu as [|? ? Hn Hu']; subst.
    rewrite map_app. apply NoDup_app_intro; [|exact (IH Hu')|].
    - destruct Hse as (fl & Ef & [[_ ->]|(_ & sl & Es & ->)]); cbn [map e_label]; [constructor; [intros []|constructor]|].
      constructor; [|constructor; [intros []|constructor]]. intros [E|[]].
      destruct (vrf_inj _ _ _ _ _ _ _ Es (eq_trans Ef (f_equal Some E))) as (_ & Hf & _). discriminate.
    - intros nl H1 H2. apply in_map_iff in H1, H2. destruct H1 as (x & Ex & Hx). destruct H2 as (y & Ey & Hy).
      destruct (Forall2_concat_in _ _ _ _ F Hy) as (m & es' & Hm & Hse' & Hy'). apply Hn. apply in_map_iff. exists m. split; [|exact Hm].
      symmetry. rewrite <- Ey in Ex.
      destruct (state_elems_label _ _ _ Hse Hx) as [A|[_ A]], (state_elems_label _ _ _ Hse' Hy') as [C|[_ C]];
        rewrite Ex in A; exact (proj1 (vrf_inj _ _ _ _ _ _ _ A C)).
  Qed.

  Lemma dir_new_inv : DirInv dir_new.
  Proof.
    constructor; cbn [dir_new d_epoch d_tree d_states].
    - split; [|intros y []]. cbn [canon_root empty_root]. repeat split; reflexivity.
    - intros s [].
    - intros l s H. discriminate.
    - intros y [].
    - intros s s' [].
    - intros s [].
  Qed.

  (* one publish that changes something: the new states [news], each with its elements, go in under the next epoch *)
  Record step (st st' : dstate) (news : list vrec) (ess : list (list elem)) : Prop := {
    sp_tree : root_inv (d_epoch st') (d_tree st');
    sp_epoch : d_epoch st' = d_epoch st + 1;
    sp_states : d_states st' = d_states st ++ news;
    sp_elems : Forall2 state_elems news ess;
    sp_news : forall n, In n news -> vr_epoch n = d_epoch st + 1 /\ vr_version n = ver st (vr_user n) + 1;
    sp_users : NoDup (map vr_user news);
    sp_leaves : Permutation (leaves (d_tree st')) (leaves (d_tree st) ++ map (lf_of (d_epoch st + 1)) (concat ess)) }.

  Lemma step_leaves_old st st' news ess y : step st st' news ess -> In y (leaves (d_tree st)) -> In y (leaves (d_tree st')).
  Proof using Type. intros S Hy. apply (Permutation_in _ (Permutation_sym (sp_leaves _ _ _ _ S))), in_or_app. left. exact Hy. Qed.

  Lemma step_leaves_new st st' news ess n : step st st' news ess -> In n news ->
    exists es, state_elems n es /\ forall x, In x es -> In (lf_of (vr_epoch n) x) (leaves (d_tree st')).
  Proof using Type.
    intros S Hn. destruct (Forall2_in_concat _ _ _ _ (sp_elems _ _ _ _ S) Hn) as (es & Hse & Hincl). exists es. split; [exact Hse|].
    intros x Hx. apply (Permutation_in _ (Permutation_sym (sp_leaves _ _ _ _ S))), in_or_app. right.
    rewrite (proj1 (sp_news _ _ _ _ S n Hn)). apply in_map, Hincl, Hx.
  Qed.

  Lemma step_leaves_inv st st' news ess y : step st st' news ess -> In y (leaves (d_tree st')) ->
    In y (leaves (d_tree st)) \/ exists n es x, In n news /\ state_elems n es /\ In x es /\ y = lf_of (vr_epoch n) x.
  Proof using Type.
    intros S Hy. apply (Permutation_in _ (sp_leaves _ _ _ _ S)), in_app_or in Hy. destruct Hy as [Hy|Hy]; [left; exact Hy|].
    apply in_map_iff in Hy. destruct Hy as (x & <- & Hx). destruct (Forall2_concat_in _ _ _ _ (sp_elems _ _ _ _ S) Hx) as (n & es & Hn & Hse & Hxe).
    right. exists n, es, x. rewrite (proj1 (sp_news _ _ _ _ S n Hn)). auto.
  Qed.

  Lemma step_states st st' news ess s : step st st' news ess -> In s (d_states st') <-> In s (d_states st) \/ In s news.
  Proof using Type. intros S. rewrite (sp_states _ _ _ _ S). apply in_app_iff. Qed.

  Lemma latest_step st st' news ess l : DirInv st -> step st st' news ess ->
    latest_state (d_states st') l (d_epoch st') =
    match find (fun n => bytes_eqb (vr_user n) l) news with Some n => Some n | None => latest_state (d_states st) l (d_epoch st) end.
  Proof using Type.
    intros I S. rewrite (sp_states _ _ _ _ S), (sp_epoch _ _ _ _ S).
    apply latest_after; [exact (di_epochs st I) | intros n Hn; apply (sp_news _ _ _ _ S n Hn) | exact (sp_users _ _ _ _ S)].
  Qed.

  Lemma history_step st st' news ess l : DirInv st -> step st st' news ess ->
    user_history (d_states st') l (d_epoch st') =
    match find (fun n => bytes_eqb (vr_user n) l) news with
    | Some n => n :: user_history (d_states st) l (d_epoch st)
    | None => user_history (d_states st) l (d_epoch st)
    end.
  Proof using Type.
    intros I S. assert (Hne : forall n, In n news -> vr_epoch n = d_epoch st + 1) by (intros n Hn; apply (sp_news _ _ _ _ S n Hn)).
    rewrite (sp_states _ _ _ _ S), (sp_epoch _ _ _ _ S), (user_history_app _ news l _ (di_epochs st I) Hne),
      (user_history_news news l _ (sp_users _ _ _ _ S) Hne).
    destruct (find _ news); reflexivity.
  Qed.

  Lemma ver_step st st' news ess l : DirInv st -> step st st' news ess ->
    ver st' l = match find (fun n => bytes_eqb (vr_user n) l) news with Some n => ver st l + 1 | None => ver st l end.
  Proof using Type.
    intros I S. unfold ver at 1. rewrite (latest_step st st' news ess l I S).
    destruct (find (fun n => bytes_eqb (vr_user n) l) news) as [n|] eqn:F; [|reflexivity].
    apply find_some in F. destruct F as [Hn Hl]. apply bytes_eqb_eq in Hl. rewrite <- Hl. apply (sp_news _ _ _ _ S n Hn).
  Qed.

  Lemma ver_step_new st st' news ess n : DirInv st -> step st st' news ess -> In n news -> ver st' (vr_user n) = vr_version n.
  Proof using Type.
    intros I S Hn. rewrite (ver_step st st' news ess _ I S), (find_user news n (sp_users _ _ _ _ S) Hn).
    symmetry. apply (sp_news _ _ _ _ S n Hn).
  Qed.

  Lemma ver_step_mono st st' news ess l : DirInv st -> step st st' news ess -> ver st l <= ver st' l.
  Proof using Type. intros I S. rewrite (ver_step st st' news ess l I S). destruct (find _ news); [apply N.le_add_r | apply N.le_refl]. Qed.

  Lemma step_inv st st' news ess : DirInv st -> step st st' news ess -> DirInv st'.
  Proof using Type.
    intros I S. pose proof I as [Itree Iep Iver Ilv Idist Ivle]. pose proof S as [Str Sep Sst Sel Snw Sus Slv].
    constructor.
    - exact Str.
    - intros s Hs. rewrite Sst in Hs. rewrite Sep. apply in_app_or in Hs.
      destruct Hs as [Hs|Hs]; [exact (N.le_trans _ _ _ (Iep s Hs) (N.le_add_r _ _)) | rewrite (proj1 (Snw s Hs)); apply N.le_refl].
    - intros l s Hs. rewrite (latest_step st st' news ess l I S) in Hs.
      destruct (find (fun n => bytes_eqb (vr_user n) l) news) as [n|] eqn:F; [|exact (Iver l s Hs)].
      injection Hs as <-. apply find_some in F. rewrite (proj2 (Snw n (proj1 F))). clear. lia.
    - intros y Hy. destruct (step_leaves_inv _ _ _ _ _ S Hy) as [Hy'|(n & es & x & Hn & Hse & Hxe & ->)].
      + destruct (Ilv y Hy') as (l & f & v & Hv & H1 & Hb). exists l, f, v. split; [exact Hv | split; [exact H1|]].
        pose proof (ver_step_mono st st' news ess l I S) as Hm. clear - Hb Hm. destruct f; lia.
      + cbn [lf_of lf_label]. pose proof (ver_step_new st st' news ess n I S Hn) as Hvn. pose proof (proj2 (Snw n Hn)) as Hv1.
        destruct (state_elems_label _ _ _ Hse Hxe) as [A|[Hv A]].
        * exists (vr_user n), true, (vr_version n). split; [exact A | clear - Hvn Hv1; split; lia].
        * exists (vr_user n), false, (vr_version n - 1). split; [exact A | clear - Hvn Hv; split; lia].
    - intros s s' Hs Hs' Hu He. rewrite Sst in Hs, Hs'. apply in_app_or in Hs, Hs'. destruct Hs as [Hs|Hs]; destruct Hs' as [Hs'|Hs'].
      + apply Idist; assumption.
      + exfalso. pose proof (Iep s Hs) as Hle. rewrite (proj1 (Snw s' Hs')) in He. clear - He Hle. lia.
      + exfalso. pose proof (Iep s' Hs') as Hle. rewrite (proj1 (Snw s Hs)) in He. clear - He Hle. lia.
      + pose proof (find_user news s Sus Hs) as F. rewrite Hu, (find_user news s' Sus Hs') in F. congruence.
    - intros s Hs. rewrite Sst in Hs. apply in_app_or in Hs. destruct Hs as [Hs|Hs]; [exact (Ivle s Hs)|].
      destruct (Snw s Hs) as [-> ->]. apply N.add_le_mono_r. exact (ver_le_epoch st (vr_user s) I).
  Qed.

  Lemma publish_is_step st upds st' eh : DirInv st -> publish st upds = (st', DOk eh) ->
    st' = st \/ exists news ess, step st st' news ess /\ derive_all st upds = Some (concat ess, news).
  Proof using Ce vrf_good vrf_inj.
    intros I H.
    destruct (publish_ok_inv _ _ _ _ _ _ _ H) as (Hd & _ & elems & news & Ed & [[_ ->]|(_ & t' & n' & EB & ->)]); [left; reflexivity|].
    right. destruct (derive_all_spec st upds elems news (di_versions st I) Hd Ed) as (ess & F & -> & D3 & D4). exists news, ess. split; [|exact Ed].
    assert (Hlab : forall x, In x (concat ess) -> exists l f v, vrf_label l f v = Some (e_label x) /\ (if f : bool then ver st l < v else ver st l <= v)).
    { intros x Hx. destruct (Forall2_concat_in _ _ _ _ F Hx) as (n & es & Hn & Hse & Hxe). destruct (D3 n Hn) as (_ & _ & Hv).
      destruct (state_elems_label _ _ _ Hse Hxe) as [A|[_ A]]; [exists (vr_user n), true, (vr_version n) | exists (vr_user n), false, (vr_version n - 1)];
        (split; [exact A | clear - Hv; lia]). }
    assert (Hb : batch_ok (concat ess)).
    { split; [|split; [|exact (elems_labels_nodup news ess F D4)]]; intros x Hx; destruct (Hlab x Hx) as (l & f & v & A & _);
        destruct (vrf_good _ _ _ _ A) as (W & C & L); [split; assumption | exact L]. }
    assert (Hdis : forall x y, In x (concat ess) -> In y (leaves (d_tree st)) -> e_label x <> lf_label y).
    { intros x y Hx Hy E0. destruct (Hlab x Hx) as (l & f & v & A & Hv). exact (unused_not_leaf st l f v _ I A Hv y Hy (eq_sym E0)). }
    destruct (batch_insert_spec (c_empty_label cfg) Ce (d_tree st) (d_epoch st) (d_num st) (concat ess) (di_tree st I) Hb Hdis) as (r & num' & EB' & Ir & Pr).
    rewrite EB in EB'. injection EB' as -> ->.
    constructor; cbn [d_tree d_epoch d_states]; try assumption; try reflexivity.
    intros n Hn. destruct (D3 n Hn) as (_ & a & b). split; assumption.
  Qed.

  Theorem publish_step st upds st' e h :
    DirInv st -> publish st upds = (st', DOk (e, h)) ->
    DirInv st' /\ e = d_epoch st' /\ h = spec_root_hash cfg (sleaves (d_tree st')) /\
    (st' = st \/ exists elems news,
        derive_all st upds = Some (elems, news) /\ d_epoch st' = d_epoch st + 1 /\ d_states st' = d_states st ++ news /\
        Permutation (leaves (d_tree st')) (leaves (d_tree st) ++ map (lf_of (d_epoch st + 1)) elems)).
  Proof.
    intros I H. destruct (publish_ok_inv _ _ _ _ _ _ _ H) as (_ & [= -> ->] & _).
    assert (I' : DirInv st')
      by (destruct (publish_is_step st upds st' _ I H) as [->|(news & ess & S & _)]; [exact I | exact (step_inv st st' news ess I S)]).
    split; [exact I'|]. split; [reflexivity|]. split; [apply canon_root_hash, (di_tree st' I')|].
    destruct (publish_is_step st upds st' _ I H) as [->|(news & ess & S & Ed)]; [left; reflexivity|].
    right. exists (concat ess), news. destruct S. auto.
  Qed.

  Fixpoint run_publishes (st : dstate) (reqs : list (list (bytes * bytes))) : dstate :=
    match reqs with [] => st | r :: rest => run_publishes (fst (publish st r)) rest end.

  Lemma run_publishes_ind (P : dstate -> Prop) :
    (forall st st' news ess, DirInv st -> P st -> step st st' news ess -> P st') ->
    forall reqs st, DirInv st -> P st -> DirInv (run_publishes st reqs) /\ P (run_publishes st reqs).
  Proof using Ce vrf_good vrf_inj.
    intros Hstep. induction reqs as [|r rest IH]; intros st I HP; [split; assumption|]. cbn [run_publishes].
    destruct (publish st r) as [st' res] eqn:E. cbn [fst].
    assert (G : DirInv st' /\ P st'); [|exact (IH st' (proj1 G) (proj2 G))].
    destruct res as [eh| | | | |];
      [|rewrite (publish_not_ok_same cfg ck vrf_label st r st' _ E ltac:(intros x; discriminate)); split; assumption ..].
    destruct (publish_is_step st r st' eh I E) as [->|(news & ess & S & _)]; [split; assumption|].
    split; [exact (step_inv st st' news ess I S) | exact (Hstep st st' news ess I HP S)].
  Qed.

  (* C01: after any sequence of requests - accepted or rejected - the directory's tree is the
     specification trie over its leaves and the epoch hash it serves is that trie's hash *)
  Theorem directory_always_spec reqs :
    let st := run_publishes dir_new reqs in
    DirInv st /\ d_tree st = spec_root (sleaves (d_tree st)) /\
    epoch_hash cfg st = (d_epoch st, spec_root_hash cfg (sleaves (d_tree st))).
  Proof.
    cbv zeta. destruct (run_publishes_ind (fun _ => True) (fun _ _ _ _ _ _ _ => Logic.I) reqs dir_new dir_new_inv Logic.I) as [I _].
    split; [exact I|]. destruct I as [[Hc _] _ _ _ _ _].
    split; [symmetry; apply canon_root_spec; exact Hc|]. unfold epoch_hash. f_equal. apply canon_root_hash. exact Hc.
  Qed.

  Lemma dir_root_shape st : DirInv st -> tlabel (d_tree st) = nl_root /\ is_leaf (d_tree st) = false.
  Proof using Type. intros I. exact (wf_root_shape _ (canon_root_wf _ (proj1 (di_tree st I)))). Qed.

  Lemma absent_label_nonmember st l f v nl : DirInv st -> vrf_label l f v = Some nl ->
    (if f : bool then ver st l < v else ver st l <= v) ->
    verify_nonmembership cfg (root_hash cfg true (d_tree st)) (get_non_membership_proof cfg (d_tree st) nl) = true.
  Proof using Ce vrf_good vrf_inj.
    intros I Hlab Hv. pose proof (di_tree st I) as Itree. destruct (vrf_good _ _ _ _ Hlab) as (Wn & Cn & Ln).
    apply (nonmembership_complete cfg Ce nl Wn Cn).
    - rewrite length_bits_of by exact Wn. rewrite Ln. reflexivity.
    - apply Itree.
    - intros y Hy. destruct (leaves_label_ok _ (wf_root_wfg _ (canon_root_wf _ (proj1 Itree))) y Hy) as [Wy _].
      rewrite length_bits_of by exact Wy. rewrite (proj1 (proj2 Itree y Hy)). reflexivity.
    - exact (unused_not_leaf st l f v nl I Hlab Hv).
  Qed.

  (* C02: every part of the proof an honest directory returns for a lookup that concerns the tree
     verifies against the returned root hash: existence, marker (membership) and freshness
     (non-membership of the stale label of the current version) *)
  Theorem lookup_tree_parts_verify st l p eh :
    DirInv st -> lookup cfg ck vrf_label vrf_proof st l = DOk (p, eh) ->
    eh = epoch_hash cfg st /\
    verify_membership cfg (snd eh) (lp_existence p) = true /\
    verify_membership cfg (snd eh) (lp_marker p) = true /\
    verify_nonmembership cfg (snd eh) (lp_freshness p) = true.
  Proof using Ce vrf_good vrf_inj.
    intros I H. destruct (lookup_inv _ _ _ _ _ _ _ _ H) as (s & el & ml & nl & ep & mp & np & Es & _ & _ & En & _ & _ & _ & -> & ->).
    destruct (dir_root_shape st I) as [Hr Hl]. cbn [lp_existence lp_marker lp_freshness snd epoch_hash].
    split; [reflexivity|]. split; [apply gen_membership_verifies; assumption|]. split; [apply gen_membership_verifies; assumption|].
    apply (absent_label_nonmember st l false _ nl I En). rewrite (ver_latest st l s Es). apply N.le_refl.
  Qed.
End DirRefine.
