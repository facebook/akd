(* Facts about the wire model: varint and field-list round trips, the minimal label encoding, and
   for every proof type  decode (encode p) = p  together with the well-formedness the decoders
   guarantee for anything they accept; the round trip of audit blob names. *)
From Coq Require Import List Bool Arith NArith ZArith Lia ZifyBool ZifyN.
From Akd Require GenConsts.
From Akd Require Import ListFacts NodeLabel Hashing ElemSet Tree Directory Verify Proto.
Import ListNotations.
Open Scope N_scope.

Lemma varint_fuel_S f n :
  varint_fuel (S f) n = if n <? 128 then [n] else (n mod 128 + 128) :: varint_fuel f (n / 128).
Proof. reflexivity. Qed.

Lemma unvarint_varint_fuel rest : forall f n,
  n < 2 ^ N.of_nat f ->
  unvarint (varint_fuel (S f) n ++ rest) = Some (n, length (varint_fuel (S f) n), rest).
Proof.
  induction f as [|f IH]; intros n Hn.
  - change (2 ^ N.of_nat 0) with 1 in Hn. assert (n = 0) by lia. subst n. reflexivity.
  - rewrite (varint_fuel_S (S f)). rewrite Nat2N.inj_succ, N.pow_succ_r' in Hn.
    destruct (n <? 128) eqn:E; cbn [app unvarint length]; [rewrite E; reflexivity|]. apply N.ltb_ge in E.
    rewrite (proj2 (N.ltb_ge _ 128)), IH by lia. rewrite N.add_sub, N.add_comm, <- N.div_mod by discriminate.
    reflexivity.
Qed.

Lemma unvarint_varint n rest : unvarint (varint n ++ rest) = Some (n, length (varint n), rest).
Proof.
  unfold varint. apply unvarint_varint_fuel. rewrite N2Nat.id. apply N.size_gt.
Qed.

Lemma varint_fuel_length : forall f k n, n < 128 ^ N.of_nat k -> (1 <= k)%nat -> (length (varint_fuel f n) <= k)%nat.
Proof.
  induction f as [|f IH]; intros k n Hn Hk; [cbn [varint_fuel length]; lia|].
  rewrite varint_fuel_S. destruct (N.ltb_spec n 128); cbn [length]; [lia|].
  destruct k as [|[|k]]; [lia | change (128 ^ N.of_nat 1) with 128 in Hn; lia |].
  rewrite (Nat2N.inj_succ (S k)), N.pow_succ_r' in Hn. specialize (IH (S k) (n / 128)). lia.
Qed.

Lemma varint_length n k : n < 128 ^ N.of_nat k -> (1 <= k)%nat -> (length (varint n) <= k)%nat.
Proof. intros; unfold varint; apply varint_fuel_length; assumption. Qed.

Lemma varint_cons n rest : exists b r, varint n ++ rest = b :: r.
Proof. unfold varint. rewrite varint_fuel_S. destruct (n <? 128); cbn [app]; eauto. Qed.

Lemma read_var_varint maxlen bound n rest :
  n < bound -> n < 128 ^ N.of_nat maxlen -> (1 <= maxlen)%nat ->
  read_var maxlen bound (varint n ++ rest) = POk (n, rest).
Proof.
  intros Hb Hm H1. unfold read_var. rewrite unvarint_varint.
  rewrite (proj2 (Nat.ltb_ge _ _) (varint_length n maxlen Hm H1)), (proj2 (N.leb_gt _ _) Hb). reflexivity.
Qed.

Definition small (bs : bytes) : Prop := N.of_nat (length bs) < two64.

(* field numbers fit in 29 bits: the tag is a 32-bit varint *)
Definition max_field : N := 536870912.
Definition field_pre (sch : schema) (fld : field) : Prop :=
  fst fld < max_field /\
  match snd fld with
  | WVar n => (sch (fst fld) = Some KU32 /\ n < two32) \/ (sch (fst fld) = Some KU64 /\ n < two64)
  | WLen b => sch (fst fld) = Some KLen
  end.
Definition field_small (fld : field) : Prop :=
  match snd fld with WLen b => small b | WVar _ => True end.

(* varints as parse_one reads them: at most 5 bytes below 2^32, at most 10 bytes below 2^64 *)
Lemma read_u32 n rest : n < two32 -> read_var 5 two32 (varint n ++ rest) = POk (n, rest).
Proof.
  intros H. apply read_var_varint; [exact H | | lia]. apply N.lt_trans with two32; [exact H | reflexivity].
Qed.
Lemma read_u64 n rest : n < two64 -> read_var 10 two64 (varint n ++ rest) = POk (n, rest).
Proof.
  intros H. apply read_var_varint; [exact H | | lia]. apply N.lt_trans with two64; [exact H | reflexivity].
Qed.

Lemma read_tag f w rest : f < max_field -> w < 8 ->
  read_var 5 two32 (varint (f * 8 + w) ++ rest) = POk (f * 8 + w, rest) /\
  (f * 8 + w) / 8 = f /\ (f * 8 + w) mod 8 = w.
Proof.
  unfold max_field. intros Hf Hw. split; [apply read_u32; unfold two32; lia | lia].
Qed.

Lemma parse_one_enc sch fld rest :
  field_pre sch fld -> field_small fld -> parse_one sch (enc_field fld ++ rest) = POk (fld, rest).
Proof.
  destruct fld as [f v]. unfold field_pre, field_small, enc_field, parse_one. cbn [fst snd].
  intros (Hf & Hv) Hs. destruct v as [n|b]; rewrite <- ?app_assoc.
  - rewrite <- (N.add_0_r (f * 8)). destruct (read_tag f 0 (varint n ++ rest) Hf eq_refl) as (Et & Ed & Em).
    rewrite Et. cbn [pbind fst snd]. rewrite Ed, Em, N.eqb_refl.
    destruct Hv as [[-> Hn]|[-> Hn]]; [rewrite read_u32 by exact Hn | rewrite read_u64 by exact Hn]; reflexivity.
  - destruct (read_tag f 2 (varint (N.of_nat (length b)) ++ b ++ rest) Hf eq_refl) as (Et & Ed & Em).
    rewrite Et. cbn [pbind fst snd]. rewrite Ed, Em, N.eqb_refl, Hv, read_u64 by exact Hs. cbn [pbind fst snd].
    assert (E : (N.of_nat (length (b ++ rest)) <? N.of_nat (length b)) = false).
    { apply N.ltb_ge. rewrite app_length. lia. }
    rewrite E, Nat2N.id.
    rewrite firstn_app_exact, skipn_app_exact by reflexivity. reflexivity.
Qed.

Lemma enc_field_cons fld : exists b r, enc_field fld = b :: r.
Proof. destruct fld as [f [n|b]]; apply varint_cons. Qed.

Lemma parse_fields_S sch fuel bs : bs <> [] ->
  parse_fields sch (S fuel) bs =
  (fr <- parse_one sch bs ;; fs <- parse_fields sch fuel (snd fr) ;; POk (fst fr :: fs)).
Proof. destruct bs; [congruence | reflexivity]. Qed.

Lemma enc_fields_cons fld fs : enc_fields (fld :: fs) = enc_field fld ++ enc_fields fs.
Proof. reflexivity. Qed.

Lemma parse_fields_enc sch : forall fs fuel,
  Forall (field_pre sch) fs -> Forall field_small fs -> (length fs < fuel)%nat ->
  parse_fields sch fuel (enc_fields fs) = POk fs.
Proof.
  induction fs as [|fld fs IH]; intros fuel Hp Hs Hf.
  - destruct fuel; reflexivity.
  - apply Forall_cons_iff in Hp, Hs. destruct Hp as [Hp1 Hp2], Hs as [Hs1 Hs2]. cbn [length] in Hf.
    destruct fuel as [|fuel]; [lia|]. rewrite enc_fields_cons, parse_fields_S.
    + rewrite parse_one_enc by assumption. cbn [pbind fst snd]. rewrite IH by (assumption || lia). reflexivity.
    + destruct (enc_field_cons fld) as (b & r & E). rewrite E. discriminate.
Qed.

(* every field takes at least one byte: the fuel of [parse] suffices *)
Lemma enc_fields_length fs : (length fs <= length (enc_fields fs))%nat.
Proof.
  induction fs as [|fld fs IH]; [cbn; lia|].
  rewrite enc_fields_cons, app_length. destruct (enc_field_cons fld) as (b & r & E). rewrite E. cbn [length]. lia.
Qed.

Lemma small_le a b : (length a <= length b)%nat -> small b -> small a.
Proof. unfold small. intros. lia. Qed.

Lemma enc_fields_small fs : small (enc_fields fs) -> Forall field_small fs.
Proof.
  induction fs as [|fld fs IH]; intros Hs; constructor.
  - destruct fld as [f [n|b]]; [exact I|]. apply small_le with (2 := Hs).
    rewrite enc_fields_cons. unfold enc_field. cbn [fst snd]. rewrite !app_length. lia.
  - apply IH. apply small_le with (2 := Hs). rewrite enc_fields_cons, app_length. lia.
Qed.

Lemma parse_enc sch fs :
  Forall (field_pre sch) fs -> small (enc_fields fs) -> parse sch (enc_fields fs) = POk fs.
Proof.
  intros Hp Hs. unfold parse. apply parse_fields_enc; [assumption | apply enc_fields_small; assumption |].
  pose proof (enc_fields_length fs). lia.
Qed.

(* How every decoder starts on an encoding: the field list comes back, and its payloads are small.
   The continuation gets the list as a variable with an equation: an accessor's rewrite then does
   not carry a copy of the list for every accessor still to come. *)
Lemma dec_fields {A} sch fs (k : list field -> pres A) r :
  Forall (field_pre sch) fs -> small (enc_fields fs) -> (Forall field_small fs -> forall fs', fs' = fs -> k fs' = r) ->
  (fs' <- parse sch (enc_fields fs) ;; k fs') = r.
Proof. intros Hp Hs Hk. rewrite parse_enc by assumption. exact (Hk (enc_fields_small fs Hs) fs eq_refl). Qed.

Definition key_ok (sch : schema) (f : N) (k : fkind) : Prop := f < max_field /\ sch f = Some k.

Lemma pre_len sch f b : key_ok sch f KLen -> field_pre sch (f, WLen b).
Proof. intros [H1 H2]. split; assumption. Qed.
Lemma pre_u32 sch f n : key_ok sch f KU32 -> n < two32 -> field_pre sch (f, WVar n).
Proof. intros [H1 H2] Hn. split; [exact H1 | left; split; assumption]. Qed.
Lemma pre_u64 sch f n : key_ok sch f KU64 -> n < two64 -> field_pre sch (f, WVar n).
Proof. intros [H1 H2] Hn. split; [exact H1 | right; split; assumption]. Qed.
Lemma pre_rep sch f l : key_ok sch f KLen -> Forall (field_pre sch) (rep_field f l).
Proof. intros K. unfold rep_field. rewrite Forall_map. apply Forall_forall. intros b _. exact (pre_len sch f b K). Qed.
Lemma pre_vrep sch f l : key_ok sch f KU64 -> Forall (fun e => e < two64) l -> Forall (field_pre sch) (rep_vfield f l).
Proof. intros K. unfold rep_vfield. rewrite Forall_map. apply Forall_impl. intros n. exact (pre_u64 sch f n K). Qed.
Lemma pre_opt sch f o : key_ok sch f KLen -> Forall (field_pre sch) (opt_field f o).
Proof. intros K. destruct o; cbn [opt_field]; [apply Forall_cons; [exact (pre_len sch f _ K)|]|]; apply Forall_nil. Qed.
Lemma Forall_app_intro {A} (P : A -> Prop) a b : Forall P a -> Forall P b -> Forall P (a ++ b).
Proof. intros Ha Hb. apply Forall_app. split; assumption. Qed.

(* the lemmas above follow the shape of an encoder's field list; field numbers and schemas are
   closed, so [key_ok] is settled by evaluation; bounds on numbers are taken from the context *)
Create HintDb field_pre discriminated.
#[local] Hint Resolve Forall_nil Forall_cons Forall_app_intro pre_len pre_u32 pre_u64 pre_rep pre_vrep pre_opt : field_pre.
#[local] Hint Extern 1 (key_ok _ _ _) => split; reflexivity : field_pre.

(* the tail stays outside the [if]: rewriting along a field list must not copy it *)
Lemma occurrences_cons f g v fs :
  occurrences f ((g, v) :: fs) = (if g =? f then [v] else []) ++ occurrences f fs.
Proof. unfold occurrences. cbn [filter fst]. destruct (g =? f); reflexivity. Qed.
Lemma occurrences_app f a b : occurrences f (a ++ b) = occurrences f a ++ occurrences f b.
Proof. unfold occurrences. rewrite filter_app, map_app. reflexivity. Qed.
Lemma occurrences_block f g (vs : list wval) : occurrences f (map (pair g) vs) = if g =? f then vs else [].
Proof.
  induction vs as [|v vs IH]; cbn [map]; [destruct (g =? f); reflexivity|].
  rewrite occurrences_cons, IH. destruct (g =? f); reflexivity.
Qed.
Lemma occurrences_rep f g l : occurrences f (rep_field g l) = if g =? f then map WLen l else [].
Proof. rewrite <- occurrences_block, map_map. reflexivity. Qed.
Lemma occurrences_vrep f g l : occurrences f (rep_vfield g l) = if g =? f then map WVar l else [].
Proof. rewrite <- occurrences_block, map_map. reflexivity. Qed.
Lemma occurrences_opt f g o :
  occurrences f (opt_field g o) = if g =? f then match o with Some b => [WLen b] | None => [] end else [].
Proof. destruct o; cbn [opt_field]; [rewrite occurrences_cons|]; destruct (g =? f); reflexivity. Qed.

Lemma pmap_map {A B} (enc : A -> B) (dec : B -> pres A) l :
  (forall x, In x l -> dec (enc x) = POk x) -> pmap dec (map enc l) = POk l.
Proof.
  induction l as [|a l IH]; intros H; [reflexivity|].
  cbn [map pmap]. rewrite (H a (or_introl eq_refl)). cbn [pbind].
  rewrite IH by (intros x Hx; apply H; right; exact Hx). reflexivity.
Qed.

Lemma req_var_occ f fs n : occurrences f fs = [WVar n] -> req_var f fs = POk n.
Proof. unfold req_var, get_opt. intros ->. reflexivity. Qed.
Lemma req_len_occ f fs b : occurrences f fs = [WLen b] -> req_len f fs = POk b.
Proof. unfold req_len, get_opt. intros ->. reflexivity. Qed.
Lemma opt_len_occ f fs o :
  occurrences f fs = match o with Some b => [WLen b] | None => [] end -> opt_len f fs = POk o.
Proof. unfold opt_len, get_opt. intros ->. destruct o; reflexivity. Qed.
Lemma rep_len_occ f fs l : occurrences f fs = map WLen l -> rep_len f fs = POk l.
Proof. unfold rep_len. intros ->. apply pmap_map. reflexivity. Qed.
Lemma rep_var_occ f fs l : occurrences f fs = map WVar l -> rep_var f fs = POk l.
Proof. unfold rep_var. intros ->. apply pmap_map. reflexivity. Qed.

(* In a field list written out as conses, [occurrences] of a closed field number computes.  Through
   [++] and repeated or optional fields it follows the lemmas above; then the comparisons of field
   numbers compute and the empty blocks go. *)
Ltac occ :=
  rewrite ?occurrences_app, ?occurrences_rep, ?occurrences_vrep, ?occurrences_opt;
  simpl (_ =? _); cbn [app]; rewrite ?app_nil_r; reflexivity.

Lemma pbind_ok_inv {A B} (x : pres A) (k : A -> pres B) b :
  pbind x k = POk b -> exists a, x = POk a /\ k a = POk b.
Proof. destruct x as [a| |]; [exists a; split; [reflexivity | assumption] | discriminate..]. Qed.

Lemma pmap_ok_In {A B} (f : A -> pres B) : forall l r, pmap f l = POk r ->
  forall b, In b r -> exists a, In a l /\ f a = POk b.
Proof.
  induction l as [|a l IH]; intros r H b Hb.
  - injection H as <-. destruct Hb.
  - cbn [pmap] in H. destruct (f a) as [b0| |] eqn:E; cbn [pbind] in H; try discriminate.
    destruct (pmap f l) as [bs| |]; cbn [pbind] in H; try discriminate. injection H as <-.
    destruct Hb as [<-|Hb]; [exists a; split; [left; reflexivity | exact E]|].
    destruct (IH bs eq_refl b Hb) as (a' & Ha & Ea). exists a'. split; [right; exact Ha | exact Ea].
Qed.
Lemma pmap_ok_Forall {A B} (f : A -> pres B) (P : B -> Prop) l r :
  pmap f l = POk r -> (forall a b, f a = POk b -> P b) -> Forall P r.
Proof.
  intros H Hf. apply Forall_forall. intros b Hb.
  destruct (pmap_ok_In f l r H b Hb) as (a & _ & E). exact (Hf a b E).
Qed.

Lemma Forall_field_small_rep f l : Forall field_small (rep_field f l) -> Forall small l.
Proof. unfold rep_field. rewrite Forall_map. exact (fun H => H). Qed.

Lemma rep_roundtrip {A} (enc : A -> bytes) dec (wf : A -> Prop) f l :
  (forall x, wf x -> small (enc x) -> dec (enc x) = POk x) ->
  Forall wf l -> Forall field_small (rep_field f (map enc l)) -> pmap dec (map enc l) = POk l.
Proof.
  intros H Hw Hs. apply Forall_field_small_rep in Hs. rewrite Forall_forall in Hw, Hs.
  apply pmap_map. intros x Hx. apply H; [apply Hw; exact Hx | apply Hs, in_map, Hx].
Qed.
Lemma opt_wf {A} (dec : bytes -> pres A) (wf : A -> Prop) ob o :
  match ob with Some b => m <- dec b ;; POk (Some m) | None => POk None end = POk o ->
  (forall b m, dec b = POk m -> wf m) -> match o with Some m => wf m | None => True end.
Proof.
  intros H Hw. destruct ob as [b|]; [|injection H as <-; exact I].
  apply pbind_ok_inv in H as (m & Hm & H). injection H as <-. exact (Hw b m Hm).
Qed.
Lemma opt_roundtrip {A} (enc : A -> bytes) dec (wf : A -> Prop) f o :
  (forall x, wf x -> small (enc x) -> dec (enc x) = POk x) ->
  match o with Some x => wf x | None => True end -> Forall field_small (opt_field f (option_map enc o)) ->
  match option_map enc o with Some b => m <- dec b ;; POk (Some m) | None => POk None end = POk o.
Proof.
  intros H Hw Hs. destruct o as [x|]; [|reflexivity]. cbn [option_map opt_field] in *.
  apply Forall_cons_iff in Hs. rewrite H; [reflexivity | exact Hw | exact (proj1 Hs)].
Qed.

Lemma strip0_spec v : exists k, v = strip0 v ++ repeat 0 k.
Proof.
  induction v as [|b r [k IH]]; [exists 0%nat; reflexivity|].
  cbn [strip0]. destruct (strip0 r) as [|x r'].
  - destruct (N.eqb_spec b 0) as [->|_]; [exists (S k) | exists k]; rewrite IH at 1; reflexivity.
  - exists k. rewrite IH at 1. reflexivity.
Qed.
Lemma strip0_length v : (length (strip0 v) <= length v)%nat.
Proof. destruct (strip0_spec v) as [k E]. rewrite E at 2. rewrite app_length. lia. Qed.
Lemma pad32_strip0 v : length v = 32%nat -> pad32 (strip0 v) = v.
Proof.
  intros H. destruct (strip0_spec v) as [k E]. pose proof (f_equal (@length _) E) as L.
  rewrite app_length, repeat_length in L. unfold pad32. replace (32 - length (strip0 v))%nat with k by lia.
  symmetry. exact E.
Qed.
Lemma pad32_length v : (length v <= 32)%nat -> length (pad32 v) = 32%nat.
Proof. intros H. unfold pad32. rewrite app_length, repeat_length. lia. Qed.

Definition wf_label (l : nlabel) : Prop := length (lval l) = 32%nat /\ llen l <= 256.
Definition wf_digest (b : bytes) : Prop := length b = 32%nat.
Definition wf_elem (e : elem) : Prop := wf_label (e_label e) /\ wf_digest (e_value e).
Definition wf_sib (s : sibling_proof) : Prop :=
  wf_label (sp_label s) /\ wf_label (sp_sib_label s) /\ wf_digest (sp_sib_val s).
Definition wf_mp (p : membership_proof) : Prop :=
  wf_label (mp_label p) /\ wf_digest (mp_hash_val p) /\ Forall wf_sib (mp_sibs p).
Definition wf_nmp (p : nonmembership_proof) : Prop :=
  wf_label (np_label p) /\ wf_label (np_longest_prefix p) /\
  wf_label (fst (np_child0 p)) /\ wf_digest (snd (np_child0 p)) /\
  wf_label (fst (np_child1 p)) /\ wf_digest (snd (np_child1 p)) /\ wf_mp (np_mp p).
Definition wf_lookup (p : lookup_proof) : Prop :=
  lp_epoch p < two64 /\ lp_version p < two64 /\
  wf_mp (lp_existence p) /\ wf_mp (lp_marker p) /\ wf_nmp (lp_freshness p).
Definition wf_update (u : update_proof) : Prop :=
  up_epoch u < two64 /\ up_version u < two64 /\ wf_mp (up_existence u) /\
  match up_prev u with Some m => wf_mp m | None => True end.
Definition wf_history (h : history_proof) : Prop :=
  Forall wf_update (hp_updates h) /\ Forall wf_mp (hp_past h) /\ Forall wf_nmp (hp_future h).
Definition wf_single (s : list elem * list elem) : Prop := Forall wf_elem (fst s) /\ Forall wf_elem (snd s).
Definition wf_audit (a : audit_proof) : Prop :=
  Forall wf_single (ap_proofs a) /\ Forall (fun e => e < two64) (ap_epochs a).

(* Every round trip below goes the same way: the field list fits the schema and comes back
   (dec_fields), each accessor finds its payload (the _occ lemmas), and the payloads, being shorter
   than the whole, decode by the round trips of their own types.  Conversely, what a decoder accepts
   is well-formed because every bind on the way succeeded (binds) and the decoders of the parts
   vouch for the parts (the hint database wf). *)

Lemma dec_enc_label l : wf_label l -> small (enc_label l) -> dec_label (enc_label l) = POk l.
Proof.
  intros [Hv Hn] Hs. unfold dec_label, enc_label.
  assert (Hn32 : llen l < two32) by (apply N.le_lt_trans with 256; [exact Hn | reflexivity]).
  apply dec_fields; [auto with field_pre nocore | exact Hs | intros _ fs E].
  erewrite req_var_occ, req_len_occ by (rewrite E; reflexivity). cbn [pbind].
  pose proof (strip0_length (lval l)) as Hl.
  change GenConsts.proto_label_val_max with 32. change GenConsts.proto_label_len_max with 256.
  rewrite (proj2 (N.ltb_ge 32 _)) by lia. rewrite (proj2 (N.ltb_ge 256 _) Hn), pad32_strip0 by exact Hv.
  destruct l; reflexivity.
Qed.

Ltac binds H := repeat (apply pbind_ok_inv in H as (? & ? & H)).

Create HintDb wf discriminated.
#[local] Hint Resolve pmap_ok_Forall : wf.

Lemma dec_label_wf bs l : dec_label bs = POk l -> wf_label l.
Proof.
  unfold dec_label. intros H. binds H.
  destruct (_ <? N.of_nat (length _)) eqn:Lv in H; try discriminate. destruct (_ <? _) eqn:Ln in H; try discriminate.
  injection H as <-. apply N.ltb_ge in Lv, Ln. change GenConsts.proto_label_val_max with 32 in Lv.
  split; cbn [lval llen]; [apply pad32_length; lia | exact Ln].
Qed.

Lemma dec_digest_ok b : wf_digest b -> dec_digest b = POk b.
Proof. unfold wf_digest, dec_digest. intros ->. reflexivity. Qed.
Lemma dec_digest_wf b d : dec_digest b = POk d -> wf_digest d.
Proof.
  unfold dec_digest, wf_digest. destruct (_ =? _) eqn:E; [|discriminate]. intros [= <-].
  apply N.eqb_eq in E. change GenConsts.DIGEST_BYTES with 32 in E. lia.
Qed.
#[local] Hint Resolve dec_label_wf dec_digest_wf : wf.

Lemma dec_enc_elem e : wf_elem e -> small (enc_elem e) -> dec_elem (enc_elem e) = POk e.
Proof.
  intros [Hl Hd] Hs. unfold dec_elem, enc_elem.
  apply dec_fields; [auto with field_pre nocore | exact Hs | intros Hp fs E].
  apply Forall_fold_right in Hp. destruct Hp as (S1 & _).
  erewrite !req_len_occ by (rewrite E; reflexivity). cbn [pbind].
  rewrite (dec_enc_label _ Hl S1), (dec_digest_ok _ Hd). destruct e; reflexivity.
Qed.

Lemma dec_elem_wf bs e : dec_elem bs = POk e -> wf_elem e.
Proof.
  unfold dec_elem. intros H. binds H. injection H as <-. split; eauto with wf.
Qed.
#[local] Hint Resolve dec_elem_wf : wf.

Lemma dec_enc_sib s : wf_sib s -> small (enc_sib s) -> dec_sib (enc_sib s) = POk s.
Proof.
  intros (Hl & Hsl & Hsv) Hs. unfold dec_sib, enc_sib.
  assert (Hd : (if sp_dir s then 1 else 0) < two32) by (destruct (sp_dir s); reflexivity).
  apply dec_fields; [auto with field_pre nocore | exact Hs | intros Hp fs E].
  apply Forall_fold_right in Hp. destruct Hp as (S1 & S2 & _).
  erewrite req_var_occ, req_len_occ, (rep_len_occ _ _ [_]) by (rewrite E; reflexivity). cbn [pbind].
  rewrite (dec_enc_label _ Hl S1). cbn [pbind pmap]. rewrite (dec_enc_elem (El _ _) (conj Hsl Hsv) S2).
  destruct s as [l sl sv [|]]; reflexivity.
Qed.

Lemma dec_sib_wf bs s : dec_sib bs = POk s -> wf_sib s.
Proof.
  unfold dec_sib. intros H. binds H.
  match type of H with match ?l with _ => _ end = _ => destruct l as [|sb rest]; [discriminate|] end.
  destruct (1 <? _); [discriminate|]. apply pbind_ok_inv in H as (e & He & H). injection H as <-.
  destruct (dec_elem_wf _ _ He). unfold wf_sib. eauto with wf.
Qed.
#[local] Hint Resolve dec_sib_wf : wf.

Lemma dec_enc_mp p : wf_mp p -> small (enc_mp p) -> dec_mp (enc_mp p) = POk p.
Proof.
  intros (Hl & Hh & Hsibs) Hs. unfold dec_mp, enc_mp.
  apply dec_fields; [auto with field_pre nocore | exact Hs | intros Hp fs E].
  rewrite !Forall_cons_iff in Hp. destruct Hp as (S1 & _ & S3).
  erewrite !req_len_occ, rep_len_occ by (rewrite E, !occurrences_cons; occ). cbn [pbind].
  rewrite (dec_enc_label _ Hl S1), (dec_digest_ok _ Hh). cbn [pbind].
  rewrite (rep_roundtrip _ _ _ _ _ dec_enc_sib Hsibs S3). destruct p; reflexivity.
Qed.

Lemma dec_mp_wf bs p : dec_mp bs = POk p -> wf_mp p.
Proof.
  unfold dec_mp. intros H. binds H. injection H as <-. unfold wf_mp. eauto 8 with wf.
Qed.
#[local] Hint Resolve dec_mp_wf : wf.

Lemma dec_enc_nmp p : wf_nmp p -> small (enc_nmp p) -> dec_nmp (enc_nmp p) = POk p.
Proof.
  intros (Hl & Hlp & Hc0l & Hc0v & Hc1l & Hc1v & Hmp) Hs. unfold dec_nmp, enc_nmp.
  apply dec_fields; [auto 7 with field_pre nocore | exact Hs | intros Hp fs E].
  apply Forall_fold_right in Hp. destruct Hp as (S1 & S2 & S3 & S4 & S5 & _).
  erewrite !req_len_occ, (rep_len_occ _ _ [_; _]) by (rewrite E; reflexivity). cbn [pbind].
  rewrite (dec_enc_label _ Hl S1), (dec_enc_label _ Hlp S2), (dec_enc_mp _ Hmp S5). cbn [pbind pmap].
  rewrite (dec_enc_elem (El _ _) (conj Hc0l Hc0v) S3), (dec_enc_elem (El _ _) (conj Hc1l Hc1v) S4).
  destruct p as [l lp [c0l c0v] [c1l c1v] mp]. reflexivity.
Qed.

Lemma dec_nmp_wf bs p : dec_nmp bs = POk p -> wf_nmp p.
Proof.
  unfold dec_nmp. intros H. binds H.
  match type of H with match ?l with _ => _ end = _ => destruct l as [|c0 [|c1 [|c2 rest]]]; try discriminate end.
  injection H as <-. assert (HF : Forall wf_elem [c0; c1]) by eauto with wf.
  apply Forall_fold_right in HF. destruct HF as ([] & [] & _). unfold wf_nmp. eauto 10 with wf.
Qed.
#[local] Hint Resolve dec_nmp_wf : wf.

Lemma dec_enc_lookup p : wf_lookup p -> small (enc_lookup p) -> dec_lookup (enc_lookup p) = POk p.
Proof.
  intros (He & Hv & Hex & Hmk & Hfr) Hs. unfold dec_lookup, enc_lookup.
  apply dec_fields; [auto 12 with field_pre nocore | exact Hs | intros Hp fs E].
  apply Forall_fold_right in Hp. destruct Hp as (_ & _ & _ & _ & S5 & _ & S7 & _ & S9 & _).
  erewrite !req_var_occ, !req_len_occ by (rewrite E; reflexivity). cbn [pbind].
  rewrite (dec_enc_mp _ Hex S5), (dec_enc_mp _ Hmk S7), (dec_enc_nmp _ Hfr S9). destruct p; reflexivity.
Qed.

Lemma read_var_bound ml bound bs vr : read_var ml bound bs = POk vr -> fst vr < bound.
Proof.
  unfold read_var. destruct (unvarint bs) as [[[x k] r']|]; [|discriminate].
  destruct (bound <=? x) eqn:E; [rewrite orb_true_r; discriminate|]. apply N.leb_gt in E.
  destruct (_ || _); [discriminate|]. intros [= <-]. exact E.
Qed.

Lemma parse_one_var sch bs f n r : parse_one sch bs = POk ((f, WVar n), r) -> n < two64.
Proof.
  unfold parse_one. intros H. apply pbind_ok_inv in H as (tr & _ & H).
  destruct (sch _) as [[| |]|]; try discriminate; destruct (_ =? _); try discriminate;
    apply pbind_ok_inv in H as (vr & E & H); apply read_var_bound in E.
  - injection H as _ <- _. apply N.lt_trans with two32; [exact E | reflexivity].
  - injection H as _ <- _. exact E.
  - destruct (_ <? _); discriminate.
Qed.

Lemma parse_fields_vars sch : forall fuel bs fs, parse_fields sch fuel bs = POk fs ->
  forall f n, In (f, WVar n) fs -> n < two64.
Proof.
  induction fuel as [|fuel IH]; intros [|b bs'] fs H f n Hin; try (injection H as <-; destruct Hin); [discriminate|].
  rewrite parse_fields_S in H by discriminate.
  apply pbind_ok_inv in H as ([fld r] & E & H). apply pbind_ok_inv in H as (fs' & E' & H). injection H as <-.
  destruct Hin as [->|Hin]; [exact (parse_one_var _ _ _ _ _ E) | exact (IH _ _ E' f n Hin)].
Qed.

Lemma occurrences_In f v fs : In v (occurrences f fs) -> In (f, v) fs.
Proof.
  unfold occurrences. rewrite in_map_iff. intros ([g w] & Hw & Hin). cbn [snd] in Hw. subst w.
  apply filter_In in Hin. destruct Hin as [Hin Hf]. cbn [fst] in Hf. apply N.eqb_eq in Hf. subst g. exact Hin.
Qed.

Lemma occurrences_bounded sch bs fs f n : parse sch bs = POk fs -> In (WVar n) (occurrences f fs) -> n < two64.
Proof. intros Hp Hin. exact (parse_fields_vars _ _ _ _ Hp f n (occurrences_In _ _ _ Hin)). Qed.

Lemma req_var_bounded sch bs fs f n : parse sch bs = POk fs -> req_var f fs = POk n -> n < two64.
Proof.
  intros Hp Hr. unfold req_var, get_opt in Hr.
  destruct (occurrences f fs) as [|v [|v2 rest]] eqn:E; cbn [pbind] in Hr; try discriminate.
  destruct v as [m|b]; try discriminate. injection Hr as <-.
  apply (occurrences_bounded sch bs fs f m Hp). rewrite E. left. reflexivity.
Qed.

Lemma rep_var_bounded sch bs fs f l : parse sch bs = POk fs -> rep_var f fs = POk l -> Forall (fun e => e < two64) l.
Proof.
  intros Hp Hr. apply Forall_forall. intros n Hn.
  destruct (pmap_ok_In _ _ _ Hr n Hn) as ([m|b] & Hin & E); [|discriminate]. injection E as <-.
  exact (occurrences_bounded sch bs fs f m Hp Hin).
Qed.
#[local] Hint Resolve req_var_bounded rep_var_bounded : wf.

Lemma dec_lookup_wf bs p : dec_lookup bs = POk p -> wf_lookup p.
Proof.
  unfold dec_lookup. intros H. binds H. injection H as <-. unfold wf_lookup. eauto 10 with wf.
Qed.

Lemma dec_enc_update u : wf_update u -> small (enc_update u) -> dec_update (enc_update u) = POk u.
Proof.
  intros (He & Hv & Hex & Hprev) Hs. unfold dec_update, enc_update.
  apply dec_fields; [auto 12 with field_pre nocore | exact Hs | intros Hp fs E].
  rewrite !Forall_app in Hp. destruct Hp as (S & _ & S7 & _). apply Forall_fold_right in S. destruct S as (_ & _ & _ & _ & S5 & _).
  erewrite !req_var_occ, !req_len_occ, !opt_len_occ by (rewrite E; occ). cbn [pbind].
  rewrite (opt_roundtrip _ _ _ _ _ dec_enc_mp Hprev S7), (dec_enc_mp _ Hex S5).
  destruct u; reflexivity.
Qed.

Lemma dec_update_wf bs u : dec_update bs = POk u -> wf_update u.
Proof.
  unfold dec_update. intros H. binds H. injection H as <-. unfold wf_update.
  split; [|split; [|split]]; [eauto with wf.. | eapply opt_wf; eauto with wf].
Qed.
#[local] Hint Resolve dec_update_wf : wf.

Lemma In_app3 {A} (x : A) a b c : In x b -> In x (a ++ b ++ c).
Proof. intros. apply in_or_app. right. apply in_or_app. left. assumption. Qed.

Lemma dec_enc_history h : wf_history h -> small (enc_history h) -> dec_history (enc_history h) = POk h.
Proof.
  intros (Hu & Hpm & Hfm) Hs. unfold dec_history, enc_history.
  apply dec_fields; [auto 7 with field_pre nocore | exact Hs | intros Hp fs E].
  rewrite !Forall_app in Hp. destruct Hp as (S1 & _ & S3 & _ & S5).
  erewrite !rep_len_occ by (rewrite E; occ). cbn [pbind].
  rewrite (rep_roundtrip _ _ _ _ _ dec_enc_update Hu S1), (rep_roundtrip _ _ _ _ _ dec_enc_mp Hpm S3),
    (rep_roundtrip _ _ _ _ _ dec_enc_nmp Hfm S5). destruct h; reflexivity.
Qed.

Lemma dec_history_wf bs h : dec_history bs = POk h -> wf_history h.
Proof.
  unfold dec_history. intros H. binds H. injection H as <-. unfold wf_history. eauto 12 with wf.
Qed.

Lemma dec_enc_single s : wf_single s -> small (enc_single s) -> dec_single (enc_single s) = POk s.
Proof.
  intros (Hi & Hu) Hs. unfold dec_single, enc_single.
  apply dec_fields; [auto with field_pre nocore | exact Hs | intros Hp fs E].
  rewrite Forall_app in Hp. destruct Hp as (S1 & S2).
  erewrite !rep_len_occ by (rewrite E; occ). cbn [pbind].
  rewrite (rep_roundtrip _ _ _ _ _ dec_enc_elem Hi S1), (rep_roundtrip _ _ _ _ _ dec_enc_elem Hu S2).
  destruct s; reflexivity.
Qed.

Lemma dec_single_wf bs s : dec_single bs = POk s -> wf_single s.
Proof.
  unfold dec_single. intros H. binds H. injection H as <-. unfold wf_single. eauto 8 with wf.
Qed.
#[local] Hint Resolve dec_single_wf : wf.

Lemma dec_enc_audit a : wf_audit a -> small (enc_audit a) -> dec_audit (enc_audit a) = POk a.
Proof.
  intros (Hpr & He) Hs. unfold dec_audit, enc_audit.
  apply dec_fields; [auto with field_pre nocore | exact Hs | intros Hp fs E].
  rewrite Forall_app in Hp. destruct Hp as (S1 & _).
  erewrite rep_len_occ, rep_var_occ by (rewrite E; occ). cbn [pbind].
  rewrite (rep_roundtrip _ _ _ _ _ dec_enc_single Hpr S1). destruct a; reflexivity.
Qed.

Lemma dec_audit_wf bs a : dec_audit bs = POk a -> wf_audit a.
Proof.
  unfold dec_audit. intros H. binds H. injection H as <-. unfold wf_audit. eauto 8 with wf.
Qed.

Lemma unhex_hex n : n < 16 -> unhexdigit (hexdigit n) = Some n.
Proof.
  intros Hn. unfold hexdigit, unhexdigit. destruct (n <? 10) eqn:E.
  - destruct (_ && _) eqn:E1; [f_equal; lia | lia].
  - destruct (_ && _) eqn:E1; [lia|]. destruct ((97 <=? _) && _) eqn:E2; [f_equal; lia | lia].
Qed.
Lemma hex_enc_cons x b : hex_enc (x :: b) = hexdigit (x / 16) :: hexdigit (x mod 16) :: hex_enc b.
Proof. reflexivity. Qed.

Lemma hex_dec_enc b : Forall (fun x => x < 256) b -> hex_dec (hex_enc b) = Some b.
Proof.
  induction 1 as [|x b Hx Hb IH]; [reflexivity|].
  rewrite hex_enc_cons. cbn [hex_dec]. rewrite !unhex_hex by lia. rewrite IH. f_equal. f_equal. lia.
Qed.

Definition no_sep (s : bytes) : Prop := Forall (fun c => c <> NAME_SEPARATOR) s.
Lemma hexdigit_no_sep n : hexdigit n <> NAME_SEPARATOR.
Proof. unfold hexdigit, NAME_SEPARATOR. destruct (n <? 10); lia. Qed.
Lemma hex_enc_no_sep b : no_sep (hex_enc b).
Proof. induction b as [|x b IH]; [constructor|]. rewrite hex_enc_cons. repeat constructor; [apply hexdigit_no_sep.. | exact IH]. Qed.

Lemma split_no_sep s : no_sep s -> split NAME_SEPARATOR s = [s].
Proof.
  induction 1 as [|c s Hc Hs IH]; [reflexivity|].
  cbn [split]. apply N.eqb_neq in Hc. rewrite Hc, IH. reflexivity.
Qed.
Lemma split_app a b : no_sep a -> split NAME_SEPARATOR (a ++ NAME_SEPARATOR :: b) = a :: split NAME_SEPARATOR b.
Proof.
  induction 1 as [|c s Hc Hs IH].
  - cbn [app split]. rewrite N.eqb_refl. reflexivity.
  - cbn [app split]. apply N.eqb_neq in Hc. rewrite Hc, IH. reflexivity.
Qed.

Definition digits (s : bytes) : Prop := Forall (fun c => 48 <= c /\ c <= 57) s.
Lemma dec_fuel_digits : forall f n, digits (dec_fuel f n).
Proof.
  induction f as [|f IH]; intros n; [constructor|].
  cbn [dec_fuel]. destruct (n <? 10) eqn:E.
  - constructor; [lia|constructor].
  - apply Forall_app. split; [apply IH|]. constructor; [lia|constructor].
Qed.
Lemma fold_dec_digits : forall s a, digits s -> exists v, fold_left dec_step s (Some a) = Some v.
Proof.
  induction s as [|c s IH]; intros a H; [eexists; reflexivity|].
  apply Forall_cons_iff in H. destruct H as [Hc Hs]. cbn [fold_left dec_step].
  destruct (_ && _) eqn:E; [apply IH, Hs | lia].
Qed.
Lemma dec_fuel_S f n :
  dec_fuel (S f) n = if n <? 10 then [48 + n] else dec_fuel f (n / 10) ++ [48 + n mod 10].
Proof. reflexivity. Qed.
Lemma dec_step_digit a n : n < 10 -> dec_step (Some a) (48 + n) = Some (10 * a + n).
Proof.
  intros H. unfold dec_step. destruct (_ && _) eqn:E; [f_equal; lia | lia].
Qed.
(* the digits of n / 10 come first, so they are read from the same start value *)
Lemma dec_fuel_value : forall f n, n < 10 ^ N.of_nat (S f) -> fold_left dec_step (dec_fuel (S f) n) (Some 0) = Some n.
Proof.
  induction f as [|f IH]; intros n Hn; rewrite dec_fuel_S; destruct (N.ltb_spec n 10) as [L|L];
    try (cbn [fold_left]; rewrite dec_step_digit by exact L; f_equal; lia).
  - change (10 ^ N.of_nat 1) with 10 in Hn. lia.
  - rewrite fold_left_app, IH.
    + cbn [fold_left]. rewrite dec_step_digit by lia. f_equal. symmetry. apply N.div_mod. discriminate.
    + rewrite (Nat2N.inj_succ (S f)), N.pow_succ_r' in Hn. apply N.div_lt_upper_bound; lia.
Qed.
Lemma dec_parse_print n : n < two64 -> dec_parse (dec_print n) = Some n.
Proof.
  intros Hn. unfold dec_parse, dec_print. destruct (dec_fuel 20 n) eqn:E.
  - rewrite dec_fuel_S in E. destruct (n <? 10); [discriminate|]. apply app_eq_nil in E. destruct E as [_ E]. discriminate E.
  - rewrite <- E. apply dec_fuel_value. apply N.lt_trans with two64; [exact Hn | reflexivity].
Qed.

Lemma digits_no_sep s : digits s -> no_sep s.
Proof. unfold digits, no_sep, NAME_SEPARATOR. apply Forall_impl. intros c Hc. lia. Qed.

(* a first character that is a digit is not '+'; the match on 43 goes down the bits of the character *)
Lemma digits_not_plus {A} s (x y : A) : digits s -> match s with 43 :: _ => x | _ => y end = y.
Proof.
  intros [|[|q] ds [Hq _] _]; [reflexivity | lia |].
  do 5 (destruct q as [q|q|]; try reflexivity). destruct q; try reflexivity; lia.
Qed.

Lemma blob_name_roundtrip e p c :
  e < two64 -> length p = 32%nat -> length c = 32%nat ->
  Forall (fun x => x < 256) p -> Forall (fun x => x < 256) c ->
  parse_blob_name (blob_name e p c) = POk (e, p, c).
Proof.
  intros He Hp Hc Bp Bc. unfold parse_blob_name, blob_name. cbn [app].
  pose proof (dec_fuel_digits 20 e) as Hd. fold (dec_print e) in Hd.
  rewrite !split_app, split_no_sep by (apply hex_enc_no_sep || apply digits_no_sep, Hd).
  rewrite digits_not_plus, dec_parse_print by assumption.
  assert (E : (two64 <=? e) = false) by lia. rewrite E, !hex_dec_enc, Hp, Hc by assumption. reflexivity.
Qed.

Lemma verify_after_decode cfg vc pk root e l hp allow p h :
  wf_lookup p -> small (enc_lookup p) -> wf_history h -> small (enc_history h) ->
  (forall q, dec_lookup (enc_lookup p) = POk q -> lookup_verify cfg vc pk root e l q = lookup_verify cfg vc pk root e l p) /\
  (forall g, dec_history (enc_history h) = POk g ->
             key_history_verify cfg vc pk root e l g hp allow = key_history_verify cfg vc pk root e l h hp allow).
Proof.
  intros Wp Sp Wh Sh. split.
  - intros q Hq. rewrite dec_enc_lookup in Hq by assumption. injection Hq as <-. reflexivity.
  - intros g Hg. rewrite dec_enc_history in Hg by assumption. injection Hg as <-. reflexivity.
Qed.

Lemma enc_lookup_inj p p' : wf_lookup p -> wf_lookup p' -> small (enc_lookup p) ->
  enc_lookup p = enc_lookup p' -> p = p'.
Proof.
  intros W W' S E. pose proof (dec_enc_lookup p W S) as H. rewrite E in S, H.
  rewrite (dec_enc_lookup p' W' S) in H. injection H as ->. reflexivity.
Qed.

Definition ex_label (b : N) (n : N) : nlabel := NL (b :: repeat 0 31) n.
Definition ex_digest (b : N) : bytes := repeat b 32.
Definition ex_mp : membership_proof :=
  MP (ex_label 200 256) (ex_digest 7) [SP (ex_label 128 1) (ex_label 64 2) (ex_digest 9) true; SP (ex_label 0 0) (ex_label 1 0) (ex_digest 3) false].
Definition ex_lookup : lookup_proof :=
  LP 5 [1; 2; 3] 2 (repeat 17 80) ex_mp (repeat 18 80) ex_mp (repeat 19 80)
     (NMP (ex_label 77 256) (ex_label 64 2) (ex_label 64 3, ex_digest 1) (ex_label 96 3, ex_digest 2) ex_mp) [4; 5].

Lemma example_lookup_roundtrip : exists p, wf_lookup p /\ small (enc_lookup p) /\ mp_sibs (lp_existence p) <> [] /\
  dec_lookup (enc_lookup p) = POk p.
Proof.
  exists ex_lookup.
  assert (W : wf_lookup ex_lookup) by (repeat constructor; cbv; discriminate).
  assert (S : small (enc_lookup ex_lookup)) by (unfold small; vm_compute; reflexivity).
  split; [exact W | split; [exact S | split; [discriminate | apply dec_enc_lookup; assumption]]].
Qed.
