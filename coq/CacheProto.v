(* The read-fill / write-through protocol of the storage manager (akd/src/storage/manager/mod.rs with
   akd/src/storage/cache/high_parallelism.rs), as a transition system with any number of concurrently
   running readers and (serialised) writers, every step of every task being a scheduling point:

     reader:  load writes_started ; load writes_completed (ticket = Some started if they agree) ;
              read the data layer ; put what was read into the cache if the ticket is still current
     writer:  bump writes_started ; write the data layer ; put the record into the cache ;
              bump writes_completed

   Three variants of the reader's last step:
     NoTicket      the fill is unconditional (the code before the fix)
     TicketSplit   the ticket is checked, and the fill is a later step (check outside the cache's lock)
     TicketLocked  check and fill are one step (the check is made while the slot of the key is locked,
                   TimedCache::batch_put_if; a writer's put of the same key takes the same lock)

   Theorem: under TicketLocked, in every reachable state in which no write is in progress the cache
   holds nothing or what the data layer holds (one key; keys are independent).  NoTicket is refuted
   by the schedule that reproduced K3 on the implementation, TicketSplit by the schedule in which a
   whole write happens between check and fill. *)
From Coq Require Import List Arith Lia Bool.
From Akd Require Import ListFacts.
Import ListNotations.

Inductive rpc := RS | R0 | R0' (n : nat) | R1 (t : option nat) | R2 (t : option nat) (v : nat) | R3 (v : nat) | RDone (v : nat).
Inductive pmode := NoTicket | TicketSplit | TicketLocked.
Inductive wpc := W0 (v : nat) | W1 (v : nat) | W2 (v : nat) | W3 | WDone.

Record pstate := PSt { p_db : nat; p_cache : option nat; p_started : nat; p_completed : nat; p_readers : list rpc; p_writers : list wpc }.

Fixpoint pupd {A} (l : list A) (i : nat) (x : A) : list A :=
  match l, i with
  | [], _ => []
  | _ :: r, O => x :: r
  | a :: r, S j => a :: pupd r j x
  end.

Section Proto.
  Variable md : pmode.

  Definition step_reader (s : pstate) (i : nat) : pstate :=
    match nth_error (p_readers s) i with
    | Some RS => PSt (p_db s) (p_cache s) (p_started s) (p_completed s) (pupd (p_readers s) i (match p_cache s with Some v => RDone v | None => R0 end)) (p_writers s)
    | Some R0 => PSt (p_db s) (p_cache s) (p_started s) (p_completed s) (pupd (p_readers s) i (R0' (p_started s))) (p_writers s)
    | Some (R0' n) =>
      let t := if Nat.eqb n (p_completed s) then Some n else None in
      PSt (p_db s) (p_cache s) (p_started s) (p_completed s) (pupd (p_readers s) i (R1 t)) (p_writers s)
    | Some (R1 t) => PSt (p_db s) (p_cache s) (p_started s) (p_completed s) (pupd (p_readers s) i (R2 t (p_db s))) (p_writers s)
    | Some (R2 t v) =>
      let current := match t with Some n => Nat.eqb n (p_started s) | None => false end in
      match md with
      | NoTicket => PSt (p_db s) (Some v) (p_started s) (p_completed s) (pupd (p_readers s) i (RDone v)) (p_writers s)
      | TicketLocked => PSt (p_db s) (if current then Some v else p_cache s) (p_started s) (p_completed s) (pupd (p_readers s) i (RDone v)) (p_writers s)
      | TicketSplit => PSt (p_db s) (p_cache s) (p_started s) (p_completed s) (pupd (p_readers s) i (if current then R3 v else RDone v)) (p_writers s)
      end
    | Some (R3 v) => PSt (p_db s) (Some v) (p_started s) (p_completed s) (pupd (p_readers s) i (RDone v)) (p_writers s)
    | _ => s
    end.

  (* writers are serialised (the publish lock): a write starts only when none is in progress *)
  Definition step_writer (s : pstate) (j : nat) : pstate :=
    match nth_error (p_writers s) j with
    | Some (W0 v) =>
      if Nat.eqb (p_started s) (p_completed s)
      then PSt (p_db s) (p_cache s) (S (p_started s)) (p_completed s) (p_readers s) (pupd (p_writers s) j (W1 v))
      else s
    | Some (W1 v) => PSt v (p_cache s) (p_started s) (p_completed s) (p_readers s) (pupd (p_writers s) j (W2 v))
    | Some (W2 v) => PSt (p_db s) (Some v) (p_started s) (p_completed s) (p_readers s) (pupd (p_writers s) j W3)
    | Some W3 => PSt (p_db s) (p_cache s) (p_started s) (S (p_completed s)) (p_readers s) (pupd (p_writers s) j WDone)
    | _ => s
    end.

  (* the environment may empty the cache at any time: expiry, memory pressure, flush *)
  Definition evict_cache (s : pstate) : pstate :=
    PSt (p_db s) None (p_started s) (p_completed s) (p_readers s) (p_writers s).

  Inductive paction := AR (i : nat) | AW (j : nat) | AE.
  Definition pstep (s : pstate) (a : paction) : pstate :=
    match a with AR i => step_reader s i | AW j => step_writer s j | AE => evict_cache s end.
  Definition prun (s : pstate) (sched : list paction) : pstate := fold_left pstep sched s.

  (* a reader either consults the cache first (get, batch_get) or not (get_user_state) *)
  Definition pinit (d : nat) (rs : list bool) (ws : list nat) : pstate :=
    PSt d None 0 0 (map (fun b : bool => if b then RS else R0) rs) (map W0 ws).
End Proto.

(* A task is a sequence of reads and writes performed one after the other.  The implementation can be
   parked where it calls the data layer: just before the call and just after it; [advance] runs a task
   up to its next such point (this is how the correspondence harness drives the storage manager). *)
Inductive op := OpR (i : nat) | OpW (j : nat).
Definition op_step (md : pmode) (s : pstate) (o : op) : pstate :=
  match o with OpR i => step_reader md s i | OpW j => step_writer s j end.
Definition op_done (s : pstate) (o : op) : bool :=
  match o with
  | OpR i => match nth_error (p_readers s) i with Some (RDone _) => true | _ => false end
  | OpW j => match nth_error (p_writers s) j with Some WDone => true | _ => false end
  end.
Definition op_parked (s : pstate) (o : op) : bool :=
  match o with
  | OpR i => match nth_error (p_readers s) i with Some (R1 _) | Some (R2 _ _) => true | _ => false end
  | OpW j => match nth_error (p_writers s) j with Some (W1 _) | Some (W2 _) => true | _ => false end
  end.
Fixpoint advance (md : pmode) (fuel : nat) (s : pstate) (task : list op) : pstate * list op :=
  match fuel with
  | O => (s, task)
  | S f =>
    match task with
    | [] => (s, [])
    | o :: rest =>
      let s' := op_step md s o in
      if op_done s' o then advance md f s' rest
      else if op_parked s' o then (s', task) else advance md f s' task
    end
  end.
(* schedule entry 9: the cache is flushed *)
Definition release (md : pmode) (st : pstate * list (list op)) (t : nat) : pstate * list (list op) :=
  if Nat.eqb t 9 then (evict_cache (fst st), snd st)
  else
  match nth_error (snd st) t with
  | Some task => let '(s', task') := advance md 64 (fst st) task in (s', pupd (snd st) t task')
  | None => st
  end.
(* every task first runs to its first parking point, in spawn order; then the schedule releases them *)
Definition trun (md : pmode) (d : nat) (rs : list bool) (ws : list nat) (tasks : list (list op)) (sched : list nat) : pstate * list (list op) :=
  fold_left (release md) (seq 0 (length tasks) ++ sched) (pinit d rs ws, tasks).
Definition returned (s : pstate) : list (option nat) :=
  map (fun r => match r with RDone v => Some v | _ => None end) (p_readers s).

Definition w_idle (w : wpc) : Prop := match w with W0 _ | WDone => True | _ => False end.

Definition r_ok (s : pstate) (r : rpc) : Prop :=
  match r with
  | R1 (Some n) => n <= p_completed s
  | R2 (Some n) v => n <= p_completed s /\ (n = p_started s -> v = p_db s)
  | R3 _ => False
  | _ => True
  end.

(* at most one writer is past W0, and exactly when started = completed + 1 *)
Fixpoint busy_count (ws : list wpc) : nat :=
  match ws with
  | [] => 0
  | w :: r => (match w with W1 _ | W2 _ | W3 => 1 | _ => 0 end) + busy_count r
  end.

Definition w_ok (s : pstate) (w : wpc) : Prop :=
  match w with
  | W1 _ => p_cache s = None \/ p_cache s = Some (p_db s)
  | W2 v => p_db s = v
  | W3 => p_cache s = Some (p_db s) \/ p_cache s = None
  | _ => True
  end.

Record PInv (s : pstate) : Prop := {
  i_count : p_started s = p_completed s + busy_count (p_writers s);
  i_one : busy_count (p_writers s) <= 1;
  i_readers : Forall (r_ok s) (p_readers s);
  i_writers : Forall (w_ok s) (p_writers s);
  i_cache : busy_count (p_writers s) = 0 -> p_cache s = None \/ p_cache s = Some (p_db s) }.

Lemma pupd_eq {A} (l : list A) : forall i x, pupd l i x = upd_nth l i x.
Proof. induction l as [|a l IH]; intros [|i] x; cbn [pupd upd_nth]; try reflexivity. now rewrite IH. Qed.

(* [busy_count] is [count wb] *)
Definition wb (w : wpc) : nat := match w with W1 _ | W2 _ | W3 => 1 | _ => 0 end.

Lemma busy_upd ws j w w' : nth_error ws j = Some w -> busy_count (pupd ws j w') + wb w = busy_count ws + wb w'.
Proof. rewrite pupd_eq. exact (count_upd wb ws j w w'). Qed.

Lemma busy_nth ws j w : nth_error ws j = Some w -> wb w <= busy_count ws.
Proof. exact (count_nth wb ws j w). Qed.

Lemma w_ok_idle s w : wb w = 0 -> w_ok s w.
Proof. destruct w; cbn [wb w_ok]; auto; discriminate. Qed.

(* the step of the busy writer: every other writer is idle *)
Lemma Forall_w_ok_step s ws j w w' : busy_count ws <= 1 -> nth_error ws j = Some w -> wb w = 1 ->
  w_ok s w' -> Forall (w_ok s) (pupd ws j w').
Proof.
  intros H1 E Hb Hw'. rewrite pupd_eq. apply (Forall_upd_counted wb _ ws j w w' H1 E); [lia | apply w_ok_idle | exact Hw'].
Qed.

Lemma Forall_w_ok_quiet s ws : busy_count ws = 0 -> Forall (w_ok s) ws.
Proof. intros B0. exact (Forall_count0 wb _ ws B0 (w_ok_idle s)). Qed.

(* a reader's ticket and what it has read stay good when writes complete, and when a write starts or
   reaches the data layer, because then the ticket is no longer current *)
Lemma r_ok_mono s s' r : p_completed s <= p_completed s' ->
  (forall n, n <= p_completed s -> n = p_started s' -> n = p_started s /\ p_db s' = p_db s) ->
  r_ok s r -> r_ok s' r.
Proof.
  intros Hc Hs. destruct r as [| |k|[m|]|[m|] v|v|v]; cbn [r_ok]; auto.
  - intros A. lia.
  - intros [A C]. split; [lia|]. intros Em. destruct (Hs m A Em) as [E1 E2]. rewrite E2. auto.
Qed.

Lemma init_inv d rs ws : PInv (pinit d rs ws).
Proof.
  assert (B : busy_count (map W0 ws) = 0) by (induction ws; cbn; auto).
  constructor; cbn [pinit p_started p_completed p_writers p_readers p_cache p_db]; rewrite ?B; auto.
  - apply Forall_forall. intros r Hr. apply in_map_iff in Hr. destruct Hr as ([|] & <- & _); exact I.
  - apply Forall_w_ok_quiet, B.
Qed.

Lemma quiet_coherent s : PInv s -> p_started s = p_completed s -> p_cache s = None \/ p_cache s = Some (p_db s).
Proof. intros I Eq. apply (i_cache _ I). pose proof (i_count _ I). lia. Qed.

Definition rnext (s : pstate) (r : rpc) : rpc :=
  match r with
  | RS => match p_cache s with Some v => RDone v | None => R0 end
  | R0 => R0' (p_started s)
  | R0' n => R1 (if Nat.eqb n (p_completed s) then Some n else None)
  | R1 t => R2 t (p_db s)
  | R2 _ v | R3 v | RDone v => RDone v
  end.
Definition rfill (s : pstate) (r : rpc) : option nat :=
  match r with
  | R2 (Some n) v => if Nat.eqb n (p_started s) then Some v else p_cache s
  | R3 v => Some v
  | _ => p_cache s
  end.

Lemma step_reader_eq s i r : nth_error (p_readers s) i = Some r ->
  step_reader TicketLocked s i =
  PSt (p_db s) (rfill s r) (p_started s) (p_completed s) (upd_nth (p_readers s) i (rnext s r)) (p_writers s).
Proof.
  intros E. unfold step_reader. rewrite E.
  destruct r as [| | | |[n|] v| |]; cbn [rnext rfill]; rewrite ?pupd_eq; try reflexivity.
  rewrite (upd_nth_id _ _ _ E). destruct s; reflexivity.
Qed.

Lemma step_reader_none md s i : nth_error (p_readers s) i = None -> step_reader md s i = s.
Proof. intros E. unfold step_reader. now rewrite E. Qed.

Lemma rnext_ok s r : r_ok s r -> r_ok s (rnext s r).
Proof.
  destruct r as [| |n|[m|]|t v|v|v]; cbn [rnext r_ok]; auto.
  - destruct (p_cache s); exact id.
  - destruct (Nat.eqb_spec n (p_completed s)) as [->|]; cbn [r_ok]; auto.
Qed.

(* a fill happens only with a current ticket: no write is in progress and the value read is the data layer's *)
Lemma rfill_ok s r : PInv s -> r_ok s r ->
  rfill s r = p_cache s \/ (rfill s r = Some (p_db s) /\ busy_count (p_writers s) = 0).
Proof.
  intros I. destruct r as [| |n|t|[n|] v|v|v]; cbn [rfill r_ok]; auto; [|intros []].
  intros [Hn Hv]. destruct (Nat.eqb_spec n (p_started s)) as [Eq|]; [|auto].
  right. rewrite (Hv Eq). split; [reflexivity|]. pose proof (i_count _ I). lia.
Qed.

Lemma reader_keeps s i : PInv s -> PInv (step_reader TicketLocked s i).
Proof.
  intros I. destruct (nth_error (p_readers s) i) as [r|] eqn:E; [|now rewrite step_reader_none].
  rewrite (step_reader_eq s i r E).
  pose proof (nth_error_Forall _ _ _ _ (i_readers _ I) E) as Hr. pose proof (rfill_ok s r I Hr) as Hf.
  destruct I as [Hc H1 Hrs Hw Hca].
  constructor; cbn [p_db p_cache p_started p_completed p_readers p_writers]; try assumption.
  - apply Forall_upd; [exact Hrs | exact (rnext_ok s r Hr)].
  - destruct Hf as [->|[-> B0]]; [exact Hw | apply Forall_w_ok_quiet, B0].
  - intros B0. destruct Hf as [->|[-> _]]; auto.
Qed.

Lemma writer_keeps s j : PInv s -> PInv (step_writer s j).
Proof.
  intros I0. pose proof I0 as [Hc H1 Hr Hw Hca]. unfold step_writer.
  destruct (nth_error (p_writers s) j) as [w|] eqn:E; [|exact I0].
  pose proof (nth_error_Forall _ _ _ _ Hw E) as Hwj.
  pose proof (fun w' => busy_upd _ j w w' E) as BU. pose proof (busy_nth _ j w E) as B1.
  destruct w as [v|v|v| |]; cbn [w_ok wb] in Hwj, BU, B1; [| | | |exact I0].
  - (* start *)
    destruct (Nat.eqb_spec (p_started s) (p_completed s)) as [Eq|]; [|exact I0].
    assert (B0 : busy_count (p_writers s) = 0) by lia. specialize (BU (W1 v)). cbn [wb] in BU.
    constructor; cbn [p_db p_cache p_started p_completed p_readers p_writers]; try lia.
    + eapply Forall_impl; [|exact Hr]. intros r. apply r_ok_mono; cbn [p_completed p_started p_db]; [auto | intros n Hn En; lia].
    + rewrite pupd_eq. apply Forall_upd; [apply Forall_w_ok_quiet, B0 | exact (Hca B0)].
  - (* write the data layer: a ticket taken before is not current, the write has started since *)
    specialize (BU (W2 v)). cbn [wb] in BU.
    constructor; cbn [p_db p_cache p_started p_completed p_readers p_writers]; try lia.
    + eapply Forall_impl; [|exact Hr]. intros r. apply r_ok_mono; cbn [p_completed p_started p_db]; [auto | intros n Hn En; lia].
    + apply (Forall_w_ok_step _ _ j (W1 v)); auto. reflexivity.
  - (* write-through *)
    specialize (BU W3). cbn [wb] in BU.
    constructor; cbn [p_db p_cache p_started p_completed p_readers p_writers]; try lia.
    + exact Hr.
    + apply (Forall_w_ok_step _ _ j (W2 v)); auto. left. cbn [p_cache p_db]. now rewrite Hwj.
  - (* completed *)
    specialize (BU WDone). cbn [wb] in BU.
    constructor; cbn [p_db p_cache p_started p_completed p_readers p_writers]; try lia.
    + eapply Forall_impl; [|exact Hr]. intros r. apply r_ok_mono; cbn [p_completed p_started p_db]; auto.
    + apply (Forall_w_ok_step _ _ j W3); auto. exact I.
    + intros _. destruct Hwj; auto.
Qed.

Lemma evict_keeps s : PInv s -> PInv (evict_cache s).
Proof.
  intros [Hc H1 Hr Hw Hca].
  constructor; cbn [evict_cache p_db p_cache p_started p_completed p_readers p_writers]; auto.
  eapply Forall_impl; [|exact Hw]. intros w. destruct w; cbn [w_ok p_cache p_db]; auto.
Qed.

Lemma pstep_keeps s a : PInv s -> PInv (pstep TicketLocked s a).
Proof. destruct a; [apply reader_keeps | apply writer_keeps | apply evict_keeps]. Qed.

Theorem ticket_protocol_coherent : forall d rs ws sched,
  let s := prun TicketLocked (pinit d rs ws) sched in
  PInv s /\ (p_started s = p_completed s -> p_cache s = None \/ p_cache s = Some (p_db s)).
Proof.
  intros d rs ws sched s.
  assert (I : PInv s) by (apply (fold_left_inv PInv); [exact pstep_keeps | apply init_inv]).
  split; [exact I | exact (quiet_coherent s I)].
Qed.

(* a read that hits the cache when no write is in progress therefore returns what the data layer holds *)
Corollary cached_read_is_current : forall d rs ws sched v,
  let s := prun TicketLocked (pinit d rs ws) sched in
  p_started s = p_completed s -> p_cache s = Some v -> v = p_db s.
Proof.
  intros d rs ws sched v s Eq Hc. destruct (ticket_protocol_coherent d rs ws sched) as [_ H].
  destruct (H Eq) as [E|E]; fold s in E; congruence.
Qed.

(* the task-level executions are executions: the invariant holds along them too *)
Lemma op_step_keeps s o : PInv s -> PInv (op_step TicketLocked s o).
Proof. destruct o; [apply reader_keeps | apply writer_keeps]. Qed.
Lemma advance_keeps : forall fuel s task, PInv s -> PInv (fst (advance TicketLocked fuel s task)).
Proof.
  induction fuel as [|f IH]; intros s task I0; [exact I0|]. cbn [advance].
  destruct task as [|o rest]; [exact I0|].
  pose proof (op_step_keeps s o I0) as I1.
  destruct (op_done (op_step TicketLocked s o) o); [apply IH; exact I1|].
  destruct (op_parked (op_step TicketLocked s o) o); [exact I1 | apply IH; exact I1].
Qed.
Lemma release_keeps st t : PInv (fst st) -> PInv (fst (release TicketLocked st t)).
Proof.
  intros I0. unfold release. destruct (Nat.eqb t 9); [apply evict_keeps, I0|].
  destruct (nth_error (snd st) t) as [task|]; [|exact I0].
  pose proof (advance_keeps 64 (fst st) task I0) as I1.
  destruct (advance TicketLocked 64 (fst st) task). exact I1.
Qed.
Theorem task_runs_coherent : forall d rs ws tasks sched,
  let s := fst (trun TicketLocked d rs ws tasks sched) in
  p_started s = p_completed s -> p_cache s = None \/ p_cache s = Some (p_db s).
Proof.
  intros d rs ws tasks sched s. apply quiet_coherent.
  apply (fold_left_inv (fun st => PInv (fst st))); [exact release_keeps | apply init_inv].
Qed.

(* a further step of the reader whose step was the last one *)
Lemma step_reader_upd db c st co rs ws i r r0 : nth_error rs i = Some r0 ->
  step_reader TicketLocked (PSt db c st co (upd_nth rs i r) ws) i =
  let s := PSt db c st co (upd_nth rs i r) ws in PSt db (rfill s r) st co (upd_nth rs i (rnext s r)) ws.
Proof.
  intros E. rewrite (step_reader_eq _ i r) by exact (nth_error_upd_same _ _ _ _ E).
  cbn [p_db p_started p_completed p_readers p_writers]. now rewrite upd_nth_twice.
Qed.

(* a read that runs while no write is in progress returns the data layer's record - through the cache
   or not - and leaves the data layer alone *)
Theorem quiet_read_returns_db s i :
  PInv s -> p_started s = p_completed s -> nth_error (p_readers s) i = Some RS ->
  let s' := prun TicketLocked s [AR i; AR i; AR i; AR i; AR i] in
  nth_error (p_readers s') i = Some (RDone (p_db s)) /\ p_db s' = p_db s.
Proof.
  intros I Eq E. pose proof (quiet_coherent s I Eq) as Hc.
  destruct s as [db c st co rs ws]. cbn [p_db p_cache p_started p_completed p_readers] in *. subst co.
  cbv zeta. unfold prun. cbn [fold_left pstep]. rewrite <- (upd_nth_id rs i RS E).
  (* five steps computed one by one: a miss goes through ticket, read and fill; a hit is finished after the first *)
  destruct Hc as [->| ->];
    do 5 (rewrite (step_reader_upd _ _ _ _ _ _ _ _ _ E); cbn [rnext rfill p_db p_cache p_started p_completed];
          rewrite ?Nat.eqb_refl);
    (split; [exact (nth_error_upd_same _ _ _ _ E) | reflexivity]).
Qed.

(* the protocol before the fix: the schedule that reproduced K3 - a reader reads, a write completes,
   the reader fills - leaves an older value in the cache with no write in progress *)
Definition k3_schedule := [AR 0; AR 0; AR 0; AW 0; AW 0; AW 0; AW 0; AR 0].
Theorem without_ticket_refuted :
  let s := prun NoTicket (pinit 0 [false] [1]) k3_schedule in
  p_started s = p_completed s /\ p_db s = 1 /\ p_cache s = Some 0.
Proof. vm_compute. repeat split. Qed.

(* the ticket checked outside the lock: a whole write between the check and the fill *)
Definition split_schedule := [AR 0; AR 0; AR 0; AR 0; AW 0; AW 0; AW 0; AW 0; AR 0].
Theorem split_check_refuted :
  let s := prun TicketSplit (pinit 0 [false] [1]) split_schedule in
  p_started s = p_completed s /\ p_db s = 1 /\ p_cache s = Some 0.
Proof. vm_compute. repeat split. Qed.

(* the same schedules under the protocol of the code *)
Example locked_same_schedules :
  let s := prun TicketLocked (pinit 0 [false] [1]) k3_schedule in
  let s' := prun TicketLocked (pinit 0 [false] [1]) split_schedule in
  (p_started s = p_completed s /\ p_db s = 1 /\ p_cache s = Some 1) /\
  (p_started s' = p_completed s' /\ p_db s' = 1 /\ p_cache s' = Some 1).
Proof. vm_compute. repeat split. Qed.

(* a reader that meets no writer does fill the cache (the ticket does not switch caching off) *)
Example reader_alone_fills :
  p_cache (prun TicketLocked (pinit 7 [false] []) [AR 0; AR 0; AR 0; AR 0]) = Some 7.
Proof. reflexivity. Qed.
