(* Completeness side of C05: proofs produced by the model of the honest prover verify.
   No assumption on the hash function is needed. *)
From Coq Require Import List Bool Arith NArith Lia.
From Akd Require Import Bits NodeLabel NodeLabelFacts Hashing Tree TreeFacts.
Import ListNotations.
Open Scope N_scope.

Section Complete.
  Variable cfg : config.

  Lemma child_elem_slot o : child_elem cfg o = (slot_label cfg o, slot_value cfg o).
  Proof. destruct o; reflexivity. Qed.

  Lemma walk_fold fuel : forall cur x,
    let '(n, sibs) := lcp_walk cfg fuel cur x in
    fold_right (mstep cfg) (tlabel n, node_value cfg true n) sibs = (tlabel cur, node_value cfg true cur)
    /\ Sub n cur /\ (sibs = [] -> n = cur).
  Proof.
    induction fuel as [|f IH]; intros cur x; cbn [lcp_walk]; [repeat split; auto using Sub|].
    destruct (nl_eqb x (tlabel cur)); [repeat split; auto using Sub|].
    destruct (get_prefix_ordering (tlabel cur) x) as [dir|]; [|repeat split; auto using Sub].
    destruct (child cur dir) as [c|] eqn:Ec; [|repeat split; auto using Sub].
    destruct (nl_eqb x (tlabel c) || _); [|repeat split; auto using Sub].
    rewrite child_elem_slot. specialize (IH c x). destruct (lcp_walk cfg f c x) as [n sibs].
    destruct IH as (IH1 & IH2 & _).
    destruct cur as [l v e|l le mde a b]; [discriminate|]. cbn [child] in Ec.
    split; [|split; [|discriminate]].
    - cbn [fold_right]. rewrite IH1. cbn [mstep sp_dir sp_label sp_sib_label sp_sib_val tlabel child negb].
      f_equal. change (node_value cfg true (Node l le mde a b)) with (hashval cfg true (Node l le mde a b)).
      destruct dir; cbn [negb].
      + subst b. rewrite hashval_node by (right; discriminate). reflexivity.
      + subst a. rewrite hashval_node by (left; discriminate). reflexivity.
    - destruct dir; subst; [apply Sub_r|apply Sub_l]; exact IH2.
  Qed.

  (* C05 (completeness, membership): whatever label is queried, the proof the prover returns for the
     node its walk reaches verifies against the root hash *)
  Theorem gen_membership_verifies t x :
    tlabel t = nl_root -> is_leaf t = false ->
    verify_membership cfg (root_hash cfg true t) (get_membership_proof cfg t x) = true.
  Proof.
    intros Hroot Hleaf. unfold get_membership_proof. pose proof (walk_fold walk_fuel t x) as H.
    destruct (lcp_walk cfg walk_fuel t x) as [n sibs]. destruct H as (H1 & H2 & H3).
    unfold verify_membership, mfold. cbn [mp_sibs mp_label mp_hash_val]. rewrite H1. cbn [snd].
    apply andb_true_iff. split.
    - destruct sibs; [|reflexivity]. rewrite (H3 eq_refl), Hroot. apply nl_eqb_refl.
    - unfold root_hash. destruct t; [discriminate|]. apply bytes_eqb_eq. reflexivity.
  Qed.
End Complete.
