(* The prover's walk finds every leaf of a canonical tree: the membership proof returned for the
   label of a present leaf is a proof for exactly that leaf (label and stored value). *)
From Coq Require Import List Bool Arith NArith Lia.
From Akd Require Import Bits NodeLabel NodeLabelFacts Hashing Tree TreeFacts Spec SpecFacts InsertRefine NonMemComplete.
Import ListNotations.
Open Scope N_scope.

Section MemFind.
  Variable cfg : config.

  Lemma leaves_of_child cur d c y : child cur d = Some c -> In y (leaves c) -> In y (leaves cur).
  Proof. intros Hc. apply (Sub_leaves_in c cur). exact (Sub_child c cur d c Hc (Sub_refl c)). Qed.

  Lemma walk_finds fuel cur y :
    pos cur -> In y (leaves cur) -> WF (lf_label y) -> canonical (lf_label y) = true ->
    length (bits_of (lf_label y)) = 256%nat ->
    prefixb (bits_of (tlabel cur)) (bits_of (lf_label y)) = true ->
    (257 <= fuel + length (bits_of (tlabel cur)))%nat ->
    fst (lcp_walk cfg fuel cur (lf_label y)) = Leaf (lf_label y) (lf_value y) (lf_epoch y).
  Proof.
    intros Hpos Hy Wy Cy Ly Hpre Hf.
    destruct (walk_reaches cfg (lf_label y) Wy Cy fuel cur Hpos Hpre Hf) as (Horig & Hst & Hb).
    specialize (Hb y Hy eq_refl). destruct (lcp_walk cfg fuel cur (lf_label y)) as [n sibs]. cbn [fst] in *.
    assert (Hpn : pos n) by (destruct Horig as [->|Cn]; [exact Hpos | exact (canon_pos n Cn)]).
    destruct Hst as [En|(d & Pn & Hch)].
    - (* n carries the 256-bit label: it has no child, whose label would be longer; so it is a leaf, so y *)
      destruct (is_leaf n) eqn:Hl.
      + destruct n as [ln vn en|]; [|discriminate]. destruct Hb as [<-|[]]. reflexivity.
      + exfalso. destruct (leaves_node_in n y Hb Hl) as (dir & c & Ec & _). destruct (pos_child n dir c Hpn Ec) as [Pc Cc].
        apply pord_length in Pc. pose proof (bits_le_256 _ (proj1 (canon_label c Cc))) as Lc. rewrite En, Ly in Pc. clear - Pc Lc. lia.
    - (* the walk cannot have stopped above y: y lies below the child in its direction *)
      exfalso. destruct (leaf_side n d y Hpn Hb Pn) as (c & Ec & Hyc). rewrite Ec in Hch. cbn [avoids] in Hch.
      destruct (pos_child n d c Hpn Ec) as [_ Cc].
      rewrite (leaves_prefix c (wf_sub_wfg c (proj1 Cc)) y Hyc) in Hch. discriminate.
  Qed.

  Theorem membership_proof_of_leaf t y :
    canon_root t -> In y (leaves t) -> WF (lf_label y) -> canonical (lf_label y) = true ->
    length (bits_of (lf_label y)) = 256%nat ->
    mp_label (get_membership_proof cfg t (lf_label y)) = lf_label y /\
    mp_hash_val (get_membership_proof cfg t (lf_label y)) = c_leaf_hash cfg (lf_value y) (lf_epoch y).
  Proof.
    intros Hc Hy Wy Cy Ly.
    assert (Hroot : tlabel t = nl_root) by (destruct t; [destruct Hc | destruct Hc as (-> & _); reflexivity]).
    pose proof (walk_finds walk_fuel t y (canon_root_pos t Hc) Hy Wy Cy Ly ltac:(rewrite Hroot; reflexivity) ltac:(unfold walk_fuel; lia)) as Hw.
    unfold get_membership_proof. destruct (lcp_walk cfg walk_fuel t (lf_label y)) as [n sibs]. cbn [fst] in Hw. subst n.
    cbn [mp_label mp_hash_val tlabel node_value]. split; reflexivity.
  Qed.
End MemFind.
