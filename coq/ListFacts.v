(* Facts about lists that several layers share: positions, Forall / NoDup / Permutation, and what the
   protocol models have in common: runs, replacing one position of a list, counting the elements of
   a kind, replacing one value of a function. *)
From Coq Require Import List Arith Bool Lia Permutation.
Import ListNotations.

Lemma nth_firstn {A} (l : list A) n i d : i < n -> nth i (firstn n l) d = nth i l d.
Proof.
  revert n i; induction l as [|x l IH]; intros [|n] [|i] H; simpl; auto; try lia.
  apply IH. lia.
Qed.

Lemma nth_skipn {A} (l : list A) n i d : nth i (skipn n l) d = nth (n + i) l d.
Proof.
  revert l; induction n as [|n IH]; intros l; simpl; auto.
  destruct l as [|x l]; [destruct i; reflexivity|]. apply IH.
Qed.

Lemma app_eq_len {A} (x y r1 r2 : list A) :
  length x = length y -> x ++ r1 = y ++ r2 -> x = y /\ r1 = r2.
Proof.
  revert y; induction x as [|a x IH]; intros [|b y] Hl H; simpl in *; try lia; auto.
  inversion H; subst. destruct (IH y ltac:(lia) H2) as [-> ->]. auto.
Qed.

Lemma firstn_app_exact {A} n (a b : list A) : length a = n -> firstn n (a ++ b) = a.
Proof. intros <-. rewrite firstn_app, Nat.sub_diag, firstn_O, app_nil_r, firstn_all. reflexivity. Qed.

Lemma skipn_app_exact {A} n (a b : list A) : length a = n -> skipn n (a ++ b) = b.
Proof. intros <-. rewrite skipn_app, Nat.sub_diag, skipn_all. reflexivity. Qed.

Lemma last_in {A} (l : list A) d : l <> [] -> In (last l d) l.
Proof.
  intros H. rewrite (app_removelast_last d H) at 2. apply in_or_app. right. left. reflexivity.
Qed.

Lemma in_firstn {A} (y : A) n l : In y (firstn n l) -> In y l.
Proof. intros H. rewrite <- (firstn_skipn n l). apply in_or_app. now left. Qed.

Lemma length_flat_map_const {A B} (f : A -> list B) (k : nat) :
  (forall x, length (f x) = k) -> forall l, length (flat_map f l) = k * length l.
Proof.
  intros Hf l. induction l as [|x l IH]; simpl; [lia|]. rewrite app_length, Hf, IH. lia.
Qed.

Lemma nth_flat_map_const {A B} (f : A -> list B) (k : nat) (d : B) (da : A) :
  0 < k -> (forall x, length (f x) = k) ->
  forall (l : list A) (i : nat), i < k * length l ->
  nth i (flat_map f l) d = nth (i mod k) (f (nth (i / k) l da)) d.
Proof.
  intros Hk Hf l. induction l as [|x l IH]; intros i Hi.
  - simpl in Hi. lia.
  - simpl. destruct (Nat.ltb_spec i k) as [Hlt|Hge].
    + rewrite app_nth1 by (rewrite Hf; exact Hlt).
      rewrite Nat.mod_small, Nat.div_small by exact Hlt. reflexivity.
    + rewrite app_nth2 by (rewrite Hf; exact Hge). rewrite Hf.
      rewrite IH by (simpl in Hi; lia).
      replace i with ((i - k) + 1 * k) at 3 4 by lia.
      rewrite Nat.mod_add, Nat.div_add by lia.
      replace ((i - k) / k + 1) with (S ((i - k) / k)) by lia. reflexivity.
Qed.

Lemma forallb_nth {A} (p : A -> bool) (l : list A) d :
  forallb p l = true <-> forall i, i < length l -> p (nth i l d) = true.
Proof.
  rewrite forallb_forall. split.
  - intros H i Hi. apply H. now apply nth_In.
  - intros H x Hx. destruct (In_nth _ _ d Hx) as (i & Hi & Hn). rewrite <- Hn. now apply H.
Qed.

Lemma forallb_negb_repeat l : forallb negb l = true -> l = repeat false (length l).
Proof. induction l as [|[] l IH]; cbn; intros H; [reflexivity|discriminate|f_equal; auto]. Qed.

Lemma existsb_ext_in {A} (g h : A -> bool) l :
  (forall x, In x l -> g x = h x) -> existsb g l = existsb h l.
Proof.
  induction l as [|a r IH]; intros H; cbn [existsb]; [reflexivity|].
  rewrite (H a (or_introl eq_refl)), IH; [reflexivity|].
  intros x Hx. apply H. right. exact Hx.
Qed.

Lemma existsb_perm {A} (g : A -> bool) l l' : Permutation l l' -> existsb g l = existsb g l'.
Proof.
  intros HP. apply eq_true_iff_eq. rewrite !existsb_exists.
  split; intros [x [Hx Hg]]; exists x; (split; [|exact Hg]).
  - eapply Permutation_in; [exact HP | exact Hx].
  - eapply Permutation_in; [apply Permutation_sym; exact HP | exact Hx].
Qed.

Lemma filter_all {A} (p : A -> bool) l : (forall x, In x l -> p x = true) -> filter p l = l.
Proof.
  induction l as [|x l IH]; intros H; [reflexivity|]. cbn [filter]. rewrite (H x (or_introl eq_refl)).
  f_equal. apply IH. intros y Hy. apply H. right. exact Hy.
Qed.

Lemma filter_none {A} (p : A -> bool) l : (forall x, In x l -> p x = false) -> filter p l = [].
Proof.
  induction l as [|x l IH]; intros H; [reflexivity|]. cbn [filter]. rewrite (H x (or_introl eq_refl)).
  apply IH. intros y Hy. apply H. right. exact Hy.
Qed.

Lemma filter_perm {A} (p : A -> bool) l l' : Permutation l l' -> Permutation (filter p l) (filter p l').
Proof.
  induction 1 as [|x l l' _ IH|x y l|l l' l'' _ IH1 _ IH2]; cbn [filter].
  - constructor.
  - destruct (p x); [constructor|]; exact IH.
  - destruct (p x), (p y); try apply Permutation_refl. apply perm_swap.
  - eapply Permutation_trans; eassumption.
Qed.

Lemma NoDup_app_l {A} (l1 l2 : list A) : NoDup (l1 ++ l2) -> NoDup l1.
Proof.
  induction l1 as [|a l1 IH]; intros H; [constructor|]. cbn [app] in H. inversion H as [|? ? Hn Hr]; subst.
  constructor; [intros Hin; apply Hn; apply in_or_app; left; exact Hin | apply IH; exact Hr].
Qed.

Lemma NoDup_app_disj {A} (l1 l2 : list A) a : NoDup (l1 ++ l2) -> In a l1 -> In a l2 -> False.
Proof.
  induction l1 as [|x l1 IH]; intros Hn H1 H2; [destruct H1|]. cbn [app] in Hn. inversion Hn as [|? ? Hnot Hn']; subst.
  destruct H1 as [->|H1]; [apply Hnot; apply in_or_app; right; exact H2 | exact (IH Hn' H1 H2)].
Qed.

Lemma NoDup_app_intro {A} (a b : list A) : NoDup a -> NoDup b -> (forall x, In x a -> In x b -> False) -> NoDup (a ++ b).
Proof.
  induction a as [|x a IH]; intros Ha Hb Hd; [exact Hb|]. inversion Ha as [|? ? Hn Ha']; subst. cbn [app]. constructor.
  - intros Hin. apply in_app_or in Hin. destruct Hin as [Hin|Hin]; [exact (Hn Hin) | exact (Hd x (or_introl eq_refl) Hin)].
  - apply IH; [exact Ha' | exact Hb | intros y Hy1 Hy2; exact (Hd y (or_intror Hy1) Hy2)].
Qed.

Lemma NoDup_snoc {A} (l : list A) x : NoDup l -> ~ In x l -> NoDup (l ++ [x]).
Proof.
  intros Hd Hx. apply NoDup_app_intro; [exact Hd | constructor; [intros [] | constructor] |].
  intros y Hy [<-|[]]. exact (Hx Hy).
Qed.

Lemma NoDup_map_filter {A B} (f : A -> B) (p : A -> bool) l : NoDup (map f l) -> NoDup (map f (filter p l)).
Proof.
  induction l as [|x l IH]; cbn [map filter]; intros H; [constructor|]. inversion H as [|? ? Hn Hd]; subst.
  destruct (p x); [|apply IH; exact Hd]. cbn [map]. constructor; [|apply IH; exact Hd].
  intros Hin. apply Hn. apply in_map_iff in Hin. destruct Hin as (y & Ey & Hy). apply filter_In in Hy.
  apply in_map_iff. exists y. split; [exact Ey | apply Hy].
Qed.

(* over a list this needs no classical logic *)
Lemma forall_or_bad {A} (P : A -> Prop) (Bad : Prop) (l : list A) :
  (forall x, In x l -> P x \/ Bad) -> (forall x, In x l -> P x) \/ Bad.
Proof.
  induction l as [|a l IH]; intros H; [left; intros x []|].
  destruct (H a (or_introl eq_refl)) as [Ha|]; [|now right].
  destruct (IH (fun x Hx => H x (or_intror Hx))) as [Hl|]; [|now right].
  left. intros x [<-|Hx]; [exact Ha | exact (Hl x Hx)].
Qed.

Lemma Forall2_eq {A} (xs ys : list A) : Forall2 eq xs ys -> xs = ys.
Proof. induction 1; congruence. Qed.

Lemma Forall2_concat_in {A B} (R : A -> list B -> Prop) xs yss y : Forall2 R xs yss -> In y (concat yss) ->
  exists x ys, In x xs /\ R x ys /\ In y ys.
Proof.
  induction 1 as [|x ys xs yss Hr _ IH]; [intros []|]. cbn [concat]. intros Hy. apply in_app_or in Hy. destruct Hy as [Hy|Hy].
  - exists x, ys. split; [left; reflexivity | split; assumption].
  - destruct (IH Hy) as (x' & ys' & H1 & H2 & H3). exists x', ys'. split; [right; exact H1 | split; assumption].
Qed.

Lemma Forall2_in_concat {A B} (R : A -> list B -> Prop) xs yss x : Forall2 R xs yss -> In x xs ->
  exists ys, R x ys /\ incl ys (concat yss).
Proof.
  induction 1 as [|x0 ys xs yss Hr _ IH]; [intros []|]. cbn [concat]. intros [<-|Hx].
  - exists ys. split; [exact Hr | apply incl_appl, incl_refl].
  - destruct (IH Hx) as (ys' & H1 & H2). exists ys'. split; [exact H1 | apply incl_appr; exact H2].
Qed.

Lemma Forall_repeat {A} (P : A -> Prop) x n : P x -> Forall P (repeat x n).
Proof. intros H. apply Forall_forall. intros y Hy. apply repeat_spec in Hy. now subst y. Qed.

Lemma perm_shuffle {A} (a l b r : list A) : Permutation ((a ++ l) ++ (b ++ r)) ((a ++ b) ++ (l ++ r)).
Proof.
  rewrite <- !app_assoc. apply Permutation_app_head. rewrite !app_assoc. apply Permutation_app_tail. apply Permutation_app_comm.
Qed.

Lemma nth_error_Forall {A} (P : A -> Prop) l i x : Forall P l -> nth_error l i = Some x -> P x.
Proof. intros H E. rewrite Forall_forall in H. apply H. eapply nth_error_In; eassumption. Qed.

Lemma existsb_false_In {A} (f : A -> bool) l : existsb f l = false -> forall x, In x l -> f x = false.
Proof.
  intros H x Hx. destruct (f x) eqn:E; [|reflexivity].
  rewrite <- H. symmetry. apply existsb_exists. exists x. split; assumption.
Qed.

Lemma Forall_unflagged {A} (fl : A -> bool) (P Q : A -> Prop) l :
  existsb fl l = false -> (forall x, fl x = false -> P x -> Q x) -> Forall P l -> Forall Q l.
Proof.
  intros Ef H HP. apply Forall_forall. intros x Hx.
  apply H; [exact (existsb_false_In _ _ Ef x Hx) | exact (proj1 (Forall_forall _ _) HP x Hx)].
Qed.

Lemma in_flat_map_opt {A B} (g : A -> option B) l r :
  In r (flat_map (fun k => match g k with Some y => [y] | None => [] end) l) <-> exists k, In k l /\ g k = Some r.
Proof.
  rewrite in_flat_map. split; intros (k & Hk & H); exists k; (split; [exact Hk|]).
  - destruct (g k); [destruct H as [->|[]]; reflexivity | destruct H].
  - rewrite H. now left.
Qed.

Lemma in_flat_map_if {A B} (p : A -> bool) (g : A -> B) l y :
  In y (flat_map (fun x => if p x then [g x] else []) l) <-> exists x, In x l /\ p x = true /\ y = g x.
Proof.
  rewrite in_flat_map. split; intros (x & Hx & H); exists x; (split; [exact Hx|]).
  - destruct (p x); [destruct H as [<-|[]]; auto | destruct H].
  - destruct H as [-> ->]. now left.
Qed.

(* Runs: a run of a protocol model is a fold_left of its step function over the schedule. *)

Lemma fold_left_inv {A B} (P : A -> Prop) (f : A -> B -> A) :
  (forall a b, P a -> P (f a b)) -> forall l a, P a -> P (fold_left f l a).
Proof. intros H l. induction l as [|b l IH]; intros a Ha; [exact Ha|]. apply IH, H, Ha. Qed.

Lemma fold_left_map {A B C} (op : C -> B -> C) (f : A -> B) :
  forall xs a, fold_left op (map f xs) a = fold_left (fun a s => op a (f s)) xs a.
Proof. induction xs as [|x xs IH]; intros a; [reflexivity|]. cbn [map fold_left]. apply IH. Qed.

Lemma fold_left_proj {A A' B} (h : A -> A') (f : A -> B -> A) (g : A' -> B -> A') :
  (forall a b, h (f a b) = g (h a) b) -> forall l a, h (fold_left f l a) = fold_left g l (h a).
Proof. intros H l. induction l as [|b l IH]; intros a; [reflexivity|]. cbn [fold_left]. now rewrite IH, H. Qed.

(* Replacing one position of a list (the program counter of one task), and counting the tasks of a
   kind (the writers past their first step). *)

Section UpdNth.
  Context {A : Type}.

  (* the models' own update functions ([pupd], [qupd], ...) have this body *)
  Fixpoint upd_nth (l : list A) (i : nat) (x : A) : list A :=
    match l, i with
    | [], _ => []
    | _ :: r, O => x :: r
    | a :: r, S j => a :: upd_nth r j x
    end.

  Lemma nth_error_upd_nth l : forall i x k,
    nth_error (upd_nth l i x) k =
    if Nat.eqb k i then match nth_error l i with Some _ => Some x | None => None end else nth_error l k.
  Proof.
    induction l as [|a l IH]; intros i x k.
    - cbn [upd_nth]. destruct (Nat.eqb k i), i, k; reflexivity.
    - destruct i, k; cbn [upd_nth nth_error Nat.eqb]; try reflexivity. apply IH.
  Qed.

  Lemma nth_error_upd_same l i x y : nth_error l i = Some y -> nth_error (upd_nth l i x) i = Some x.
  Proof. intros E. now rewrite nth_error_upd_nth, Nat.eqb_refl, E. Qed.

  Lemma nth_error_upd_inv l i k x r :
    nth_error (upd_nth l i x) k = Some r -> (k = i /\ r = x) \/ (k <> i /\ nth_error l k = Some r).
  Proof.
    rewrite nth_error_upd_nth. destruct (Nat.eqb_spec k i) as [->|N]; [|now right].
    destruct (nth_error l i); intros [= <-]. now left.
  Qed.

  Lemma upd_nth_id l : forall i x, nth_error l i = Some x -> upd_nth l i x = l.
  Proof.
    induction l as [|a l IH]; intros [|i] x E; cbn in *; try discriminate.
    - now injection E as ->.
    - now rewrite IH.
  Qed.

  Lemma upd_nth_twice l : forall i x y, upd_nth (upd_nth l i x) i y = upd_nth l i y.
  Proof. induction l as [|a l IH]; intros [|i] x y; cbn [upd_nth]; try reflexivity. now rewrite IH. Qed.

  Lemma in_upd_nth l : forall i x y, In y (upd_nth l i x) -> y = x \/ In y l.
  Proof.
    induction l as [|a l IH]; intros [|i] x y H; cbn in *; try tauto.
    - destruct H as [<-|H]; auto.
    - destruct H as [<-|H]; [auto|]. destruct (IH i x y H); auto.
  Qed.

  Lemma Forall_upd (P : A -> Prop) l : forall i x, Forall P l -> P x -> Forall P (upd_nth l i x).
  Proof.
    induction l as [|a l IH]; intros i x H Hx; [constructor|]. inversion H; subst.
    destruct i; cbn [upd_nth]; constructor; auto.
  Qed.

  Lemma Forall_upd_back (P : A -> Prop) l i x y :
    nth_error l i = Some y -> P y -> Forall P (upd_nth l i x) -> Forall P l.
  Proof.
    intros E Hy H. rewrite <- (upd_nth_id l i y E), <- (upd_nth_twice l i x y). now apply Forall_upd.
  Qed.

  Variable b : A -> nat.

  Fixpoint count (l : list A) : nat := match l with [] => 0 | w :: r => b w + count r end.

  Lemma count_upd l : forall j w w', nth_error l j = Some w -> count (upd_nth l j w') + b w = count l + b w'.
  Proof.
    induction l as [|a l IH]; intros [|j] w w' E; cbn in E; try discriminate; cbn [upd_nth count].
    - injection E as ->. lia.
    - specialize (IH j w w' E). lia.
  Qed.

  Lemma count_in l w : In w l -> b w <= count l.
  Proof. induction l as [|a l IH]; [intros []|]. intros [->|H]; cbn [count]; [lia|]. specialize (IH H). lia. Qed.

  Lemma count_nth l j w : nth_error l j = Some w -> b w <= count l.
  Proof. intros E. eapply count_in, nth_error_In, E. Qed.

  Lemma count_one_other l : forall j k w w', nth_error l j = Some w -> nth_error l k = Some w' -> k <> j ->
    1 <= b w -> count l <= 1 -> b w' = 0.
  Proof.
    induction l as [|a l IH]; intros [|j] [|k] w w' Ej Ek N Hb H1; cbn in Ej, Ek; try discriminate; try congruence;
      cbn [count] in H1.
    - injection Ej as ->. apply count_nth in Ek. lia.
    - injection Ek as ->. apply count_nth in Ej. lia.
    - apply (IH j k w w' Ej Ek); [congruence | exact Hb | lia].
  Qed.

  Lemma Forall_upd_counted (P : A -> Prop) l j w w' : count l <= 1 -> nth_error l j = Some w -> 1 <= b w ->
    (forall w0, b w0 = 0 -> P w0) -> P w' -> Forall P (upd_nth l j w').
  Proof.
    intros H1 E Hb H0 Hw'. apply Forall_forall. intros w0 Hin. destruct (In_nth_error _ _ Hin) as [k Ek].
    apply nth_error_upd_inv in Ek. destruct Ek as [[_ ->]|[N Ek]]; [exact Hw'|].
    apply H0. exact (count_one_other l j k w w0 E Ek N Hb H1).
  Qed.

  Lemma Forall_count0 (P : A -> Prop) l : count l = 0 -> (forall w0, b w0 = 0 -> P w0) -> Forall P l.
  Proof. intros C H0. apply Forall_forall. intros w Hw. apply H0. apply count_in in Hw. lia. Qed.
End UpdNth.

(* Replacing one value of a function. *)

Definition fun_upd {A} (f : nat -> A) (i : nat) (x : A) : nat -> A := fun j => if Nat.eqb j i then x else f j.

Lemma fun_upd_same {A} (f : nat -> A) i x : fun_upd f i x i = x.
Proof. unfold fun_upd. now rewrite Nat.eqb_refl. Qed.
Lemma fun_upd_other {A} (f : nat -> A) i x j : j <> i -> fun_upd f i x j = f j.
Proof. intros H. unfold fun_upd. apply Nat.eqb_neq in H. now rewrite H. Qed.
