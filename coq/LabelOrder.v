(* C17, `impl Ord for NodeLabel` (length, then value bytes): a total order consistent with
   equality - what `sort_unstable`, `binary_search_by` and `partition_point` rely on - for ALL
   labels, canonical or not, whatever their byte lists. *)
From Coq Require Import List Bool NArith Lia.
From Akd Require Import NodeLabel.
Import ListNotations.

Lemma bytes_cmp_eq : forall a b, bytes_cmp a b = Eq -> a = b.
Proof.
  induction a as [|x a IH]; intros [|y b] H; cbn [bytes_cmp] in H; try discriminate; [reflexivity|].
  destruct (N.compare_spec x y) as [E|E|E]; try discriminate.
  subst y. f_equal. apply IH. exact H.
Qed.

Lemma bytes_cmp_refl : forall a, bytes_cmp a a = Eq.
Proof. induction a as [|x a IH]; cbn [bytes_cmp]; [reflexivity|]. rewrite N.compare_refl. exact IH. Qed.

Lemma bytes_cmp_opp : forall a b, bytes_cmp b a = CompOpp (bytes_cmp a b).
Proof.
  induction a as [|x a IH]; intros [|y b]; cbn [bytes_cmp CompOpp]; try reflexivity.
  rewrite (N.compare_antisym x y). destruct (x ?= y)%N; cbn [CompOpp]; [apply IH | reflexivity | reflexivity].
Qed.

Lemma bytes_cmp_lt_trans : forall a b c,
  bytes_cmp a b = Lt -> bytes_cmp b c = Lt -> bytes_cmp a c = Lt.
Proof.
  induction a as [|x a IH]; intros [|y b] [|z c]; cbn [bytes_cmp]; try congruence.
  destruct (N.compare_spec x y) as [E1|E1|E1]; try discriminate;
  destruct (N.compare_spec y z) as [E2|E2|E2]; try discriminate; intros H1 H2.
  - subst. rewrite N.compare_refl. eapply IH; eassumption.
  - subst. apply N.compare_lt_iff in E2. rewrite E2. reflexivity.
  - subst. apply N.compare_lt_iff in E1. rewrite E1. reflexivity.
  - assert (Hxz : (x < z)%N) by lia. apply N.compare_lt_iff in Hxz. rewrite Hxz. reflexivity.
Qed.

Theorem nl_cmp_eq_iff a b : nl_cmp a b = Eq <-> a = b.
Proof.
  unfold nl_cmp. split.
  - destruct (N.compare_spec (llen a) (llen b)) as [E|E|E]; try discriminate.
    intros H. apply bytes_cmp_eq in H. destruct a, b; cbn in *; subst; reflexivity.
  - intros ->. rewrite N.compare_refl. apply bytes_cmp_refl.
Qed.

Theorem nl_cmp_opp a b : nl_cmp b a = CompOpp (nl_cmp a b).
Proof.
  unfold nl_cmp. rewrite (N.compare_antisym (llen a) (llen b)).
  destruct (llen a ?= llen b)%N; cbn [CompOpp]; [apply bytes_cmp_opp | reflexivity | reflexivity].
Qed.

Theorem nl_cmp_lt_trans a b c : nl_cmp a b = Lt -> nl_cmp b c = Lt -> nl_cmp a c = Lt.
Proof.
  unfold nl_cmp.
  destruct (N.compare_spec (llen a) (llen b)) as [E1|E1|E1]; try discriminate;
  destruct (N.compare_spec (llen b) (llen c)) as [E2|E2|E2]; try discriminate; intros H1 H2.
  - rewrite E1, E2, N.compare_refl. eapply bytes_cmp_lt_trans; eassumption.
  - rewrite E1. apply N.compare_lt_iff in E2. rewrite E2. reflexivity.
  - rewrite <- E2. apply N.compare_lt_iff in E1. rewrite E1. reflexivity.
  - assert (H : (llen a < llen c)%N) by lia. apply N.compare_lt_iff in H. rewrite H. reflexivity.
Qed.
