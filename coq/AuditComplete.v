(* C04, completeness of auditing at the tree level: for a canonical tree T (what the directory's tree
   always is, C01) and consecutive epochs s, s+1, the single-epoch proof that the server's walk over
   the LATEST tree produces is accepted by the auditor against the root hashes of the trees as of s
   and s+1 - the specification tries over the leaves inserted up to s, resp. s+1.
   Ingredients: the tree as of an epoch is a restriction of the latest tree (restrict); the walk's
   output is the leaf set of a cut of the latest tree whose auditor-mode hash is the restriction's
   hash (cut); a well-formed trie's auditor hash depends on its leaf set only (norm), so the
   auditor's rebuild (AuditRebuild.v) has that hash. *)
From Coq Require Import List Bool Arith NArith Lia Permutation.
From Akd Require Import Directory Verify VerifyFacts.
From Akd Require Import Bits NodeLabel NodeLabelFacts ElemSet ElemSetFacts Hashing Tree TreeFacts
     Spec SpecFacts Insert InsertRefine AuditRebuild AuditSound.
Import ListNotations.
Open Scope N_scope.

Lemma canon_bounds : forall t, canon t -> forall y, In y (leaves t) -> t_min_desc t <= lf_epoch y /\ lf_epoch y <= t_last_epoch t.
Proof.
  refine (canon_ind _ _ _).
  - intros l v e _ _ y [<-|[]]. cbn. lia.
  - intros l a b _ _ _ _ _ _ IHa IHb y Hy. cbn [leaves] in Hy. cbn [t_min_desc t_last_epoch].
    apply in_app_or in Hy. destruct Hy as [Hy|Hy]; [specialize (IHa y Hy) | specialize (IHb y Hy)]; lia.
Qed.

Section Slots.
  Variable cfg : config.

  Definition slot_eq (we : bool) (o : option tree) (we' : bool) (o' : option tree) : Prop :=
    match o, o' with
    | Some c, Some c' => tlabel c = tlabel c' /\ node_value cfg we c = node_value cfg we' c'
    | None, None => True
    | _, _ => False
    end.

  Lemma hashval_slots we we' l l' le le' mde mde' a b a' b' :
    slot_eq we a we' a' -> slot_eq we b we' b' ->
    hashval cfg we (Node l le mde a b) = hashval cfg we' (Node l' le' mde' a' b').
  Proof.
    intros Ha Hb. rewrite !(hashval_node_slots cfg).
    destruct a, a'; try destruct Ha; destruct b, b'; try destruct Hb; cbn [slot_value_in slot_label]; congruence.
  Qed.
End Slots.

Section Restrict.
  Variable p : N -> bool.

  Fixpoint restrict (t : tree) : option tree :=
    match t with
    | Leaf l v e => if p e then Some t else None
    | Node l le mde (Some a) (Some b) =>
      match restrict a, restrict b with
      | Some a', Some b' =>
        Some (Node l (N.max (t_last_epoch a') (t_last_epoch b')) (N.min (t_min_desc a') (t_min_desc b')) (Some a') (Some b'))
      | Some a', None => Some a'
      | None, Some b' => Some b'
      | None, None => None
      end
    | Node _ _ _ _ _ => None
    end.

  Definition pl (y : leaf) : bool := p (lf_epoch y).

  Lemma restrict_spec : forall t, canon t ->
    match restrict t with
    | Some r => canon r /\ leaves r = filter pl (leaves t) /\ prefixb (bits_of (tlabel t)) (bits_of (tlabel r)) = true
    | None => filter pl (leaves t) = []
    end.
  Proof.
    apply canon_ind.
    - intros l v e W C. cbn [restrict leaves filter]. unfold pl. cbn [lf_epoch]. destruct (p e); [|reflexivity].
      split; [apply canon_leaf; assumption|]. split; [reflexivity | apply prefixb_refl].
    - intros l a b Wl Cl Pa Pb _ _ IHa IHb. cbn [restrict leaves tlabel]. rewrite filter_app.
      destruct (restrict a) as [ra|]; destruct (restrict b) as [rb|].
      + destruct IHa as (Cra & La & Qa). destruct IHb as (Crb & Lb & Qb). split; [|split].
        * apply canon_node; try assumption; try reflexivity; eapply pord_extend; eassumption.
        * cbn [leaves]. rewrite La, Lb. reflexivity.
        * apply prefixb_refl.
      + destruct IHa as (Cra & La & Qa). rewrite IHb, app_nil_r. split; [exact Cra|]. split; [exact La|].
        eapply prefixb_trans; [eapply prefixb_app_l, pord_prefix, Pa | exact Qa].
      + destruct IHb as (Crb & Lb & Qb). rewrite IHa. split; [exact Crb|]. split; [exact Lb|].
        eapply prefixb_trans; [eapply prefixb_app_l, pord_prefix, Pb | exact Qb].
      + rewrite IHa, IHb. reflexivity.
  Qed.

  (* a canonical tree is determined by its leaves, so restricting to all of them changes nothing *)
  Lemma restrict_all t : canon t -> (forall y, In y (leaves t) -> pl y = true) -> restrict t = Some t.
  Proof.
    intros Hc Hall. pose proof (restrict_spec t Hc) as R. rewrite (filter_all _ _ Hall) in R.
    destruct (restrict t) as [r|].
    - destruct R as (Cr & Lr & _). f_equal. apply canon_unique; try assumption. unfold sleaves. rewrite Lr. apply Permutation_refl.
    - exfalso. exact (wf_sub_leaves_nonempty t (proj1 Hc) R).
  Qed.

  Lemma restrict_none t : canon t -> (forall y, In y (leaves t) -> pl y = false) -> restrict t = None.
  Proof.
    intros Hc Hall. pose proof (restrict_spec t Hc) as R. rewrite (filter_none _ _ Hall) in R.
    destruct (restrict t) as [r|]; [|reflexivity]. destruct R as (Cr & Lr & _).
    exfalso. exact (wf_sub_leaves_nonempty r (proj1 Cr) Lr).
  Qed.

  Definition orestrict (o : option tree) : option tree := match o with Some c => restrict c | None => None end.
  Definition restrict_root (t : tree) : tree :=
    match t with
    | Node l _ _ a b => let a' := orestrict a in let b' := orestrict b in Node l (N.max (olast a') (olast b')) (omin a' b') a' b'
    | Leaf _ _ _ => t
    end.

  Lemma orestrict_spec dir o : canon_child dir o ->
    canon_child dir (orestrict o) /\ oleaves (orestrict o) = filter pl (oleaves o).
  Proof.
    destruct o as [c|]; [|split; [exact I | reflexivity]]. intros [Pc Cc].
    pose proof (restrict_spec c Cc) as R. cbn [orestrict oleaves]. destruct (restrict c) as [r|].
    - destruct R as (Cr & Lr & Qr). split; [|exact Lr]. split; [apply (pord_extend _ _ _ _ Pc Qr) | exact Cr].
    - split; [exact I | symmetry; exact R].
  Qed.

  Lemma restrict_root_spec t : canon_root t ->
    canon_root (restrict_root t) /\ leaves (restrict_root t) = filter pl (leaves t).
  Proof.
    destruct t as [|l le mde a b]; [intros []|]. intros (-> & Ca & Cb & _ & _).
    destruct (orestrict_spec false a Ca) as [Ca' La]. destruct (orestrict_spec true b Cb) as [Cb' Lb].
    cbn [restrict_root]. split.
    - cbn [canon_root]. split; [reflexivity|]. split; [exact Ca'|]. split; [exact Cb'|]. split; reflexivity.
    - rewrite !leaves_node, filter_app, La, Lb. reflexivity.
  Qed.
End Restrict.

Lemma sleaves_filter (q : N -> bool) ls : map sleaf_of (filter (pl q) ls) = filter (fun x => q (sl_epoch x)) (map sleaf_of ls).
Proof.
  induction ls as [|y ls IH]; [reflexivity|]. cbn [filter map]. unfold pl at 1. cbn [sleaf_of sl_epoch].
  destruct (q (lf_epoch y)); cbn [map]; rewrite IH; reflexivity.
Qed.

Theorem spec_root_as_of (q : N -> bool) t : canon_root t ->
  spec_root (filter (fun x => q (sl_epoch x)) (sleaves t)) = restrict_root q t.
Proof.
  intros Hc. destruct (restrict_root_spec q t Hc) as [Cr Lr].
  rewrite <- (canon_root_spec _ Cr). unfold sleaves. rewrite Lr, sleaves_filter. reflexivity.
Qed.

Fixpoint norm (t : tree) : tree :=
  match t with
  | Leaf l v _ => Leaf l v 0
  | Node l _ _ a b =>
    Node l 0 0 (match a with Some c => Some (norm c) | None => None end)
               (match b with Some c => Some (norm c) | None => None end)
  end.

Lemma norm_label t : tlabel (norm t) = tlabel t.
Proof. destruct t; reflexivity. Qed.
Lemma norm_last t : t_last_epoch (norm t) = 0.
Proof. destruct t; reflexivity. Qed.
Lemma norm_min t : t_min_desc (norm t) = 0.
Proof. destruct t; reflexivity. Qed.

Lemma norm_canon : forall t, wf_sub t = true -> canon (norm t).
Proof.
  apply wf_sub_ind.
  - intros l v e W C. apply canon_leaf; assumption.
  - intros l le mde a b Wl Cl Pa Pb _ _ Ca Cb. cbn [norm].
    apply canon_node; rewrite ?norm_label, ?norm_last, ?norm_min; try assumption; reflexivity.
Qed.

Lemma norm_slot dir o : wf_slot dir o -> canon_child dir (option_map norm o).
Proof. destruct o as [c|]; [|exact id]. intros [P W]. split; [rewrite norm_label; exact P | apply norm_canon; exact W]. Qed.

Lemma norm_canon_root t : wf_root t = true -> canon_root (norm t).
Proof.
  intros W. apply wf_root_slots in W. destruct W as (le & mde & a & b & -> & Sa & Sb). cbn [norm canon_root].
  split; [reflexivity|]. split; [exact (norm_slot false a Sa)|]. split; [exact (norm_slot true b Sb)|].
  destruct a, b; cbn [olast omin]; rewrite ?norm_last, ?norm_min; split; reflexivity.
Qed.

Section NormHash.
  Variable cfg : config.

  Lemma norm_value : forall t, node_value cfg false (norm t) = node_value cfg false t.
  Proof.
    induction t as [l v e|l le mde a b IHa IHb] using tree_ind'; [reflexivity|].
    apply hashval_slots; [destruct a as [c|] | destruct b as [c|]]; cbn [slot_eq]; auto using norm_label.
  Qed.

  Lemma norm_root_hash t : root_hash cfg false (norm t) = root_hash cfg false t.
  Proof.
    unfold root_hash. destruct t as [l v e|l le mde a b]; [reflexivity|].
    change (hashval cfg false (norm (Node l le mde a b))) with (node_value cfg false (norm (Node l le mde a b))).
    rewrite norm_value. reflexivity.
  Qed.
End NormHash.

Definition lv0 (y : leaf) : sleaf := SL (bits_of (lf_label y)) (lf_value y) 0.

Lemma norm_sleaves : forall t, sleaves (norm t) = map lv0 (leaves t).
Proof.
  induction t as [l v e|l le mde a b IHa IHb] using tree_ind'; [reflexivity|].
  unfold sleaves in *. cbn [norm leaves]. rewrite !map_app.
  destruct a as [a'|]; destruct b as [b'|]; cbn [map app]; try rewrite (IHa a' eq_refl); try rewrite (IHb b' eq_refl); reflexivity.
Qed.

Theorem wf_sub_unique R R' :
  wf_sub R = true -> wf_sub R' = true -> Permutation (map lv0 (leaves R)) (map lv0 (leaves R')) -> norm R = norm R'.
Proof.
  intros W W' P. apply canon_unique; try (apply norm_canon; assumption). rewrite !norm_sleaves. exact P.
Qed.

Theorem wf_root_unique cfg R R' :
  wf_root R = true -> wf_root R' = true -> Permutation (map lv0 (leaves R)) (map lv0 (leaves R')) ->
  root_hash cfg false R = root_hash cfg false R'.
Proof.
  intros W W' P. rewrite <- (norm_root_hash cfg R), <- (norm_root_hash cfg R').
  rewrite <- (canon_root_spec _ (norm_canon_root R W)), <- (canon_root_spec _ (norm_canon_root R' W')).
  rewrite !norm_sleaves. rewrite (spec_root_perm _ _ P). reflexivity.
Qed.

Section Walk.
  Variable cfg : config.
  Variables s e : N.

  Lemma ao_walk_S f r t :
    ao_walk cfg (S f) r t s e =
    if t_last_epoch t <=? s then (if r then ([], []) else ([El (tlabel t) (node_value cfg true t)], []))
    else if e <? t_min_desc t then ([], [])
    else
      match t with
      | Leaf l v _ => ([], [El l v])
      | Node _ _ _ a b =>
        let wa := match a with Some c => ao_walk cfg f false c s e | None => ([], []) end in
        let wb := match b with Some c => ao_walk cfg f false c s e | None => ([], []) end in
        (fst wa ++ fst wb, snd wa ++ snd wb)
      end.
  Proof. reflexivity. Qed.

  Definition combine (l : nlabel) (x y : option tree) : option tree :=
    match x, y with
    | Some a', Some b' => Some (Node l 0 0 (Some a') (Some b'))
    | Some a', None => Some a'
    | None, Some b' => Some b'
    | None, None => None
    end.

  (* the cut of the latest tree along the walk: unchanged subtrees become leaves carrying their hash,
     subtrees inserted later vanish, the leaves of the audited epoch are kept ([wi]) or dropped *)
  Fixpoint cut (wi : bool) (t : tree) : option tree :=
    if t_last_epoch t <=? s then Some (Leaf (tlabel t) (node_value cfg true t) 0)
    else if e <? t_min_desc t then None
    else
      match t with
      | Leaf l v _ => if wi then Some (Leaf l (c_leaf_hash cfg v e) 0) else None
      | Node l _ _ (Some a) (Some b) => combine l (cut wi a) (cut wi b)
      | Node _ _ _ _ _ => None
      end.

  Lemma combine_leaves l x y : oleaves (combine l x y) = oleaves x ++ oleaves y.
  Proof. destruct x, y; cbn [combine oleaves leaves app]; try reflexivity. rewrite app_nil_r. reflexivity. Qed.

  (* [c0], [c1] are the leaves of the cuts without and with the inserted leaves where the walk puts out [w]:
     the unchanged nodes, resp. these and the inserted nodes with their leaf hashes *)
  Definition cuts_of (c0 c1 : list leaf) (w : list elem * list elem) : Prop :=
    c0 = map (lf_of 0) (fst w) /\ Permutation c1 (map (lf_of 0) (fst w ++ map (stamp cfg e) (snd w))).

  Lemma cuts_of_app a0 a1 wa b0 b1 wb :
    cuts_of a0 a1 wa -> cuts_of b0 b1 wb -> cuts_of (a0 ++ b0) (a1 ++ b1) (fst wa ++ fst wb, snd wa ++ snd wb).
  Proof.
    intros [Sa Ea] [Sb Eb]. split; cbn [fst snd].
    - rewrite Sa, Sb, map_app. reflexivity.
    - eapply Permutation_trans; [apply Permutation_app; eassumption|]. rewrite !map_app. apply perm_shuffle.
  Qed.

  (* a label of n bits has at most 256 - n levels below it: that much fuel is never used up *)
  Lemma cut_leaves : forall t, wf_sub t = true -> forall fuel, (256 < fuel + length (bits_of (tlabel t)))%nat ->
    cuts_of (oleaves (cut false t)) (oleaves (cut true t)) (ao_walk cfg fuel false t s e).
  Proof.
    assert (Triv : forall xs : list leaf, xs = xs /\ Permutation xs xs) by (intros xs; split; [reflexivity | apply Permutation_refl]).
    assert (Fuel : forall l fuel, WF l -> (256 < fuel + length (bits_of l))%nat -> exists f, fuel = S f).
    { intros l [|f] W Hf; [pose proof (bits_le_256 l W); lia | exists f; reflexivity]. }
    refine (wf_sub_ind _ _ _).
    - intros l v ep W _ fuel Hf. destruct (Fuel l fuel W Hf) as [f ->]. rewrite ao_walk_S. cbn [cut t_last_epoch t_min_desc tlabel].
      destruct (ep <=? s); [apply Triv|]. destruct (e <? ep); [apply Triv|]. split; [reflexivity | apply Permutation_refl].
    - intros l le mde a b W _ Pa Pb _ _ Ha Hb fuel Hf. destruct (Fuel l fuel W Hf) as [f ->]. rewrite ao_walk_S. cbn [cut t_last_epoch t_min_desc tlabel].
      destruct (le <=? s); [apply Triv|]. destruct (e <? mde); [apply Triv|].
      rewrite !combine_leaves. apply pord_length in Pa, Pb. cbn [tlabel] in Hf. apply cuts_of_app; [apply Ha | apply Hb]; lia.
  Qed.
End Walk.

Section CutHash.
  Variable cfg : config.
  Variables s e : N.
  Hypothesis He : e = s + 1.

  Definition upto (wi : bool) : N -> bool := fun x => x <=? (if wi then e else s).

  Lemma cut_unfold wi t :
    cut cfg s e wi t =
    if t_last_epoch t <=? s then Some (Leaf (tlabel t) (node_value cfg true t) 0)
    else if e <? t_min_desc t then None
    else
      match t with
      | Leaf l v _ => if wi then Some (Leaf l (c_leaf_hash cfg v e) 0) else None
      | Node l _ _ (Some a) (Some b) => combine l (cut cfg s e wi a) (cut cfg s e wi b)
      | Node _ _ _ _ _ => None
      end.
  Proof. destruct t; reflexivity. Qed.

  Lemma restrict_old wi t : canon t -> t_last_epoch t <= s -> restrict (upto wi) t = Some t.
  Proof using He.
    intros Hc H. apply (restrict_all _ t Hc). intros y Hy. unfold pl, upto. apply N.leb_le.
    pose proof (canon_bounds t Hc y Hy). destruct wi; lia.
  Qed.

  Lemma restrict_new wi t : canon t -> e < t_min_desc t -> restrict (upto wi) t = None.
  Proof using He.
    intros Hc H. apply (restrict_none _ t Hc). intros y Hy. unfold pl, upto. apply N.leb_gt.
    pose proof (canon_bounds t Hc y Hy). destruct wi; lia.
  Qed.

  Lemma cut_restrict wi : forall t, canon t ->
    match cut cfg s e wi t, restrict (upto wi) t with
    | Some c, Some r => wf_sub c = true /\ tlabel c = tlabel r /\ node_value cfg false c = node_value cfg true r
    | None, None => True
    | _, _ => False
    end.
  Proof using He.
    apply canon_ind.
    - intros l v ep W C. pose proof (canon_leaf l v ep W C) as Hc. rewrite cut_unfold. cbn [t_last_epoch t_min_desc tlabel].
      assert (Wl : forall h, wf_sub (Leaf l h 0) = true) by (intros h; apply wf_sub_leaf; split; assumption).
      destruct (N.leb_spec ep s) as [H1|H1]; [rewrite (restrict_old wi _ Hc H1); split; [apply Wl | split; reflexivity]|].
      destruct (N.ltb_spec e ep) as [H2|H2]; [rewrite (restrict_new wi _ Hc H2); exact I|].
      (* a leaf of the audited epoch *)
      assert (Ee : ep = e) by lia. subst ep. cbn [restrict]. unfold upto. destruct wi.
      + rewrite N.leb_refl. split; [apply Wl | split; reflexivity].
      + rewrite (proj2 (N.leb_gt _ _) H1). exact I.
    - intros l a b Wl Cl Pa Pb Ca Cb IHa IHb.
      pose proof (canon_node l _ _ a b Wl Cl Ca Cb Pa Pb eq_refl eq_refl) as Hc.
      pose proof (restrict_spec (upto wi) a Ca) as Ra. pose proof (restrict_spec (upto wi) b Cb) as Rb.
      rewrite cut_unfold. cbn [t_last_epoch t_min_desc tlabel].
      destruct (N.leb_spec (N.max (t_last_epoch a) (t_last_epoch b)) s) as [H1|H1];
        [rewrite (restrict_old wi _ Hc H1); split; [apply wf_sub_leaf; split; assumption | split; reflexivity]|].
      destruct (N.ltb_spec e (N.min (t_min_desc a) (t_min_desc b))) as [H2|H2]; [rewrite (restrict_new wi _ Hc H2); exact I|].
      cbn [restrict].
      destruct (cut cfg s e wi a) as [ca|]; destruct (restrict (upto wi) a) as [ra|]; try (destruct IHa; fail);
      destruct (cut cfg s e wi b) as [cb|]; destruct (restrict (upto wi) b) as [rb|]; try (destruct IHb; fail); cbn [combine].
      + destruct IHa as (Wa & La & Va). destruct IHb as (Wb & Lb & Vb).
        destruct Ra as (_ & _ & Qa). destruct Rb as (_ & _ & Qb).
        split; [|split].
        * apply wf_sub_node_intro; try assumption; [rewrite La | rewrite Lb]; eapply pord_extend; eassumption.
        * reflexivity.
        * apply hashval_slots; split; assumption.
      + exact IHa.
      + exact IHb.
      + exact I.
  Qed.
End CutHash.

Lemma labels_ok_nil : labels_ok [].
Proof. split; [intros l []|]. split; [constructor | intros x y []]. Qed.

Lemma labels_ok_app p la lb :
  labels_ok la -> labels_ok lb ->
  (forall x, In x la -> prefixb (p ++ [false]) (bits_of x) = true) ->
  (forall x, In x lb -> prefixb (p ++ [true]) (bits_of x) = true) ->
  labels_ok (la ++ lb).
Proof.
  intros (A1 & A2 & A3) (B1 & B2 & B3) Pa Pb.
  assert (X : forall x y, In x la -> In y lb -> prefixb (bits_of x) (bits_of y) = true \/ prefixb (bits_of y) (bits_of x) = true -> False).
  { intros x y Hx Hy [H|H].
    - apply (siblings_disjoint p (bits_of x) (bits_of y) (bits_of y)); auto using prefixb_refl.
    - apply (siblings_disjoint p (bits_of x) (bits_of y) (bits_of x)); auto using prefixb_refl. }
  split; [|split].
  - intros l Hl. apply in_app_or in Hl. destruct Hl; auto.
  - apply NoDup_app_intro; try assumption. intros x Hx Hy. apply (X x x Hx Hy). left. apply prefixb_refl.
  - intros x y Hx Hy Hp. apply in_app_or in Hx, Hy. destruct Hx as [Hx|Hx]; destruct Hy as [Hy|Hy]; auto.
    + exfalso. apply (X x y Hx Hy). left. exact Hp.
    + exfalso. apply (X y x Hy Hx). right. exact Hp.
Qed.

Lemma wf_sub_labels_ok : forall t, wf_sub t = true -> labels_ok (map lf_label (leaves t)).
Proof.
  apply wf_sub_ind.
  - intros l v e W C. apply labels_ok_cons. split; [split; assumption|]. split; [intros y [] | apply labels_ok_nil].
  - intros l le mde a b _ _ Pa Pb Wa Wb IHa IHb. cbn [leaves]. rewrite map_app.
    apply (labels_ok_app (bits_of l)); try assumption; intros x Hx; apply in_map_iff in Hx; destruct Hx as (y & <- & Hy);
      [exact (wf_sub_leaves_below _ _ a Wa Pa y Hy) | exact (wf_sub_leaves_below _ _ b Wb Pb y Hy)].
Qed.

Lemma wf_slot_labels_ok dir o : wf_slot dir o -> labels_ok (map lf_label (oleaves o)).
Proof. destruct o as [c|]; [intros [_ W]; apply wf_sub_labels_ok; exact W | intros _; apply labels_ok_nil]. Qed.

Lemma wf_root_labels_ok t : wf_root t = true ->
  labels_ok (map lf_label (leaves t)) /\ (forall y, In y (leaves t) -> bits_of (lf_label y) <> []).
Proof.
  intros W. apply wf_root_slots in W. destruct W as (le & mde & a & b & -> & Sa & Sb). rewrite leaves_node.
  pose proof (wf_slot_leaves false a Sa) as Pa. pose proof (wf_slot_leaves true b Sb) as Pb. split.
  - rewrite map_app. apply (labels_ok_app []); try (eapply wf_slot_labels_ok; eassumption);
      intros x Hx; apply in_map_iff in Hx; destruct Hx as (y & <- & Hy); auto.
  - intros y Hy E0. apply in_app_or in Hy.
    destruct Hy as [Hy|Hy]; [specialize (Pa y Hy); rewrite E0 in Pa | specialize (Pb y Hy); rewrite E0 in Pb]; discriminate.
Qed.

Lemma trie_nodes_ok nodes C : wf_root C = true -> Permutation (leaves C) (map (lf_of 0) nodes) ->
  nodes_ok nodes /\ (forall x, In x nodes -> bits_of (e_label x) <> []).
Proof.
  intros WC PC. destruct (wf_root_labels_ok C WC) as [LC NZ]. split.
  - apply nodes_ok_labels. apply (labels_ok_perm _ (map lf_label (leaves C))); [|exact LC].
    apply Permutation_sym. eapply Permutation_trans; [apply Permutation_map; exact PC|]. rewrite map_map. apply Permutation_refl.
  - intros x Hx. apply (NZ (lf_of 0 x)). apply (Permutation_in _ (Permutation_sym PC)). apply in_map. exact Hx.
Qed.

Section Root.
  Variable cfg : config.
  Variables s e : N.
  Hypothesis He : e = s + 1.

  Definition ocut (wi : bool) (o : option tree) : option tree := match o with Some c => cut cfg s e wi c | None => None end.
  Definition cut_root (wi : bool) (T : tree) : tree :=
    match T with
    | Node l le mde a b => if e <? mde then empty_root else Node nl_root 0 0 (ocut wi a) (ocut wi b)
    | Leaf _ _ _ => T
    end.

  Lemma slot_cut wi dir o : canon_child dir o ->
    slot_eq cfg false (ocut wi o) true (orestrict (upto s e wi) o) /\ wf_slot dir (ocut wi o).
  Proof using He.
    destruct o as [c0|]; [|intros _; split; exact I]. cbn [ocut orestrict]. intros [P C].
    pose proof (cut_restrict cfg s e He wi c0 C) as H. pose proof (restrict_spec (upto s e wi) c0 C) as R.
    destruct (cut cfg s e wi c0) as [c|]; destruct (restrict (upto s e wi) c0) as [r|]; try (destruct H; fail).
    - destruct H as (W & L & V). destruct R as (_ & _ & Q). split; [split; assumption|]. split; [|exact W].
      rewrite L. exact (pord_extend _ _ _ _ P Q).
    - split; exact I.
  Qed.

  Lemma omin_le a b c dir : canon_child dir (Some c) -> (a = Some c \/ b = Some c) -> omin a b <= t_min_desc c.
  Proof using cfg s e He. intros _ [->| ->]; [destruct b | destruct a]; cbn [omin]; lia. Qed.

  Lemma orestrict_late wi dir o : canon_child dir o -> (forall c, o = Some c -> e < t_min_desc c) ->
    orestrict (upto s e wi) o = None.
  Proof using He.
    destruct o as [c|]; [|reflexivity]. intros [_ Cc] Hm. exact (restrict_new s e He wi c Cc (Hm c eq_refl)).
  Qed.

  Lemma cut_root_hash wi T : canon_root T ->
    root_hash cfg false (cut_root wi T) = root_hash cfg true (restrict_root (upto s e wi) T).
  Proof using He.
    destruct T as [|l le mde a b]; [intros []|]. intros (-> & Ca & Cb & _ & ->).
    unfold root_hash. f_equal. cbn [cut_root restrict_root].
    destruct (N.ltb_spec e (omin a b)) as [H|H].
    - rewrite (orestrict_late wi false a Ca), (orestrict_late wi true b Cb); [reflexivity | |].
      + intros c ->. pose proof (omin_le a (Some c) c true Cb (or_intror eq_refl)). lia.
      + intros c ->. pose proof (omin_le (Some c) b c false Ca (or_introl eq_refl)). lia.
    - apply hashval_slots; [apply (slot_cut wi false a Ca) | apply (slot_cut wi true b Cb)].
  Qed.

  Lemma cut_root_wf wi T : canon_root T -> wf_root (cut_root wi T) = true.
  Proof using He.
    destruct T as [|l le mde a b]; [intros []|]. intros (-> & Ca & Cb & _ & _). cbn [cut_root].
    destruct (e <? mde); [reflexivity|]. apply wf_root_slots. exists 0, 0, (ocut wi a), (ocut wi b).
    split; [reflexivity|]. split; [apply (slot_cut wi false a Ca) | apply (slot_cut wi true b Cb)].
  Qed.

  Lemma ocut_leaves dir o fuel : wf_slot dir o -> (256 < fuel)%nat ->
    cuts_of cfg e (oleaves (ocut false o)) (oleaves (ocut true o)) (match o with Some c => ao_walk cfg fuel false c s e | None => ([], []) end).
  Proof.
    destruct o as [c|]; [|intros _ _; split; [reflexivity | apply Permutation_refl]].
    intros [_ W] Hf. apply cut_leaves; [exact W | clear - Hf; lia].
  Qed.

  Lemma cut_root_leaves T : canon_root T -> s < t_last_epoch T ->
    cuts_of cfg e (leaves (cut_root false T)) (leaves (cut_root true T)) (ao_walk cfg 300 true T s e).
  Proof using.
    destruct T as [|l le mde a b]; [intros []|]. intros (-> & Ca & Cb & _ & _) Hs. cbn [t_last_epoch] in Hs.
    apply canon_slot_wf in Ca, Cb.
    change 300%nat with (S 299). rewrite ao_walk_S. cbn [t_last_epoch t_min_desc cut_root].
    rewrite (proj2 (N.leb_gt _ _) Hs).
    destruct (e <? mde); [split; [reflexivity | apply Permutation_refl]|].
    rewrite !leaves_node. apply cuts_of_app; [apply (ocut_leaves false a 299 Ca) | apply (ocut_leaves true b 299 Cb)]; clear; lia.
  Qed.
End Root.

Section Complete.
  Variable cfg : config.
  Hypothesis Ce : canonical (c_empty_label cfg) = false.

  Definition as_of (k : N) (T : tree) : list sleaf := filter (fun x => sl_epoch x <=? k) (sleaves T).

  Lemma rebuild_hash latest nodes C :
    wf_root C = true -> Permutation (leaves C) (map (lf_of 0) nodes) ->
    rebuild_root cfg nodes latest = Some (root_hash cfg false C).
  Proof using Ce.
    intros WC PC. destruct (trie_nodes_ok nodes C WC PC) as [Hno Hnz].
    destruct (rebuild_spec (c_empty_label cfg) Ce latest nodes Hno Hnz) as (R & n & EB & WR & PR).
    unfold rebuild_root. rewrite EB. f_equal. apply wf_root_unique; [exact WR | exact WC|].
    eapply Permutation_trans; [apply Permutation_map; exact PR|].
    eapply Permutation_trans; [|apply Permutation_map; apply Permutation_sym; exact PC].
    rewrite !map_map. apply Permutation_refl.
  Qed.

  Theorem audit_step_complete T s :
    canon_root T -> s < t_last_epoch T ->
    let w := ao_walk cfg 300 true T s (s + 1) in
    verify_consecutive cfg true (snd w, fst w) (spec_root_hash cfg (as_of s T)) (spec_root_hash cfg (as_of (s + 1) T)) (s + 1) = true.
  Proof.
    intros HT Hs w. set (e := s + 1) in *. assert (He : e = s + 1) by reflexivity.
    destruct (cut_root_leaves cfg s e T HT Hs) as [L0 L1]. fold w in L0, L1.
    pose proof (cut_root_wf cfg s e He false T HT) as W0. pose proof (cut_root_wf cfg s e He true T HT) as W1.
    assert (HH : forall wi : bool, spec_root_hash cfg (as_of (if wi then e else s) T) = root_hash cfg false (cut_root cfg s e wi T)).
    { intros wi. rewrite (cut_root_hash cfg s e He wi T HT), <- (spec_root_as_of (upto s e wi) T HT). reflexivity. }
    rewrite (HH false), (HH true). apply verify_consecutive_iff. split; [|split].
    - (* the prefix-free check: the nodes are the leaves of the second cut *)
      destruct (trie_nodes_ok _ _ W1 L1) as [Hno _].
      assert (Hno' : nodes_ok (fst w ++ snd w)) by (exact (nodes_ok_same_labels _ _ (stamped_labels cfg e _ _) Hno)).
      apply prefix_free_labels_iff; [apply Hno' | exact Hno'].
    - apply (rebuild_hash 0 (fst w) _ W0). rewrite L0. apply Permutation_refl.
    - exact (rebuild_hash (e - 1) _ _ W1 L1).
  Qed.
End Complete.
