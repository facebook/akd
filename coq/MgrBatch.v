(* C15 / C16: batch reads.  The result of batch_get - inside a transaction or not, whatever the cache
   holds - consists exactly of the records that the keys have in the committed view (the pending
   value if there is one, else the database's record); keys without a record contribute nothing. *)
From Coq Require Import List Bool NArith Lia.
From Akd Require Import ListFacts Manager ManagerFacts.
Import ListNotations.
Open Scope N_scope.

Lemma in_nodup_keys k : forall l, In k (nodup_keys l) <-> In k l.
Proof.
  induction l as [|a l IH]; [reflexivity|]. cbn [nodup_keys].
  destruct (existsb (key_eqb a) l) eqn:Ex.
  - rewrite IH. split; [intros H; right; exact H|]. intros [<-|H]; [|exact H].
    apply existsb_exists in Ex. destruct Ex as (b & Hb & Eb). apply key_eqb_eq in Eb. subst b. exact Hb.
  - cbn [In]. rewrite IH. reflexivity.
Qed.

(* what a key holds once the pending writes are committed *)
Definition truth (s : mstate) (k : key) : option record :=
  match (if m_active s then kget (m_mods s) k else None) with
  | Some r => Some r
  | None => kget (m_db s) k
  end.

(* what the log, or else the cache, has for a key: the truth where it answers *)
Definition local (s : mstate) (k : key) : option record :=
  match (if m_active s then kget (m_mods s) k else None) with
  | Some r => Some r
  | None => cache_get (m_cache s) k
  end.

Lemma truth_local s k : Inv s -> truth s k = match local s k with Some r => Some r | None => kget (m_db s) k end.
Proof.
  intros (C & _). unfold truth, local. destruct (if m_active s then _ else _); [reflexivity|].
  destruct (cache_get (m_cache s) k) as [r|] eqn:E; [exact (C k r E) | reflexivity].
Qed.

Lemma batch_get_result s ks :
  snd (batch_get s ks false) =
  Ok (flat_map (fun k => match local s k with Some r => [r] | None => [] end) ks ++
      flat_map (fun k => match kget (m_db s) k with Some r => [r] | None => [] end)
               (nodup_keys (filter (fun k => match local s k with Some _ => false | None => true end) ks))).
Proof.
  unfold local, batch_get. destruct ks as [|k0 kr]; [reflexivity|]. cbv zeta.
  destruct (filter _ (k0 :: kr)); [|reflexivity]. cbn [nodup_keys flat_map snd]. now rewrite app_nil_r.
Qed.

(* [t] is [truth s] in whatever terms the caller has for it *)
Theorem batch_get_spec s ks (t : key -> option record) : Inv s -> (forall k, truth s k = t k) ->
  exists l, snd (batch_get s ks false) = Ok l /\
            forall r, In r l <-> exists k, In k ks /\ t k = Some r.
Proof.
  intros HI Ht. rewrite batch_get_result. eexists. split; [reflexivity|]. intros r.
  rewrite in_app_iff, !in_flat_map_opt. split.
  - intros [(k & Hk & E)|(k & Hk & E)]; exists k; rewrite <- Ht, (truth_local s k HI).
    + now rewrite E.
    + apply in_nodup_keys, filter_In in Hk. destruct Hk as [Hk El]. destruct (local s k); [discriminate | auto].
  - intros (k & Hk & E). rewrite <- Ht, (truth_local s k HI) in E. destruct (local s k) as [r'|] eqn:El.
    + left. exists k. split; [exact Hk | congruence].
    + right. exists k. split; [|exact E]. apply in_nodup_keys, filter_In. now rewrite El.
Qed.

(* C15, inside a transaction: exactly the records of the requested keys in the database as it will be
   after the commit *)
Corollary txn_batch_get_is_committed s ks : Inv s -> m_active s = true ->
  exists l, snd (batch_get s ks false) = Ok l /\
            forall r, In r l <-> exists k, In k ks /\ kget (merged s) k = Some r.
Proof. intros HI Ha. apply batch_get_spec; [exact HI | intros k; unfold truth; now rewrite Ha, kget_merged]. Qed.

(* outside a transaction: exactly the database's records, whatever the cache holds (C16) *)
Corollary batch_get_is_db s ks : Inv s -> m_active s = false ->
  exists l, snd (batch_get s ks false) = Ok l /\
            forall r, In r l <-> exists k, In k ks /\ kget (m_db s) k = Some r.
Proof. intros HI Ha. apply batch_get_spec; [exact HI | intros k; unfold truth; now rewrite Ha]. Qed.

(* versions follow epochs among a user's stored and pending states: a later epoch never has a
   smaller version, an earlier epoch never a larger one (every update of a label raises both;
   tombstoning rewrites a record under the same epoch and version) *)
Definition versions_follow_epochs (s : mstate) (u : N) : Prop :=
  forall d m, In d (user_states (m_db s) u) -> In m (user_states (m_mods s) u) ->
    (vs_epoch d <=? vs_epoch m) = (vs_version d <=? vs_version m) /\
    (vs_epoch m <=? vs_epoch d) = (vs_version m <=? vs_version d).

(* the bulk query (which compares versions, the only thing it knows of the database's record)
   answers for every user what the single query answers: (version, value) of the selected state *)
Theorem versions_one_agrees s u f : versions_follow_epochs s u ->
  user_state_versions_one s u f =
  match snd (get_user_state s u f false) with Ok x => Some (vs_version x, vs_value x) | Err _ => None end.
Proof.
  intros Hv. unfold user_state_versions_one, get_user_state, db_user_state.
  destruct (m_active s).
  - destruct (find_item (user_states (m_mods s) u) f) as [tv|] eqn:Em.
    + destruct (find_item (user_states (m_db s) u) f) as [dv|] eqn:Ed; [|reflexivity].
      destruct (Hv dv tv (user_state_in _ _ _ _ Ed) (user_state_in _ _ _ _ Em)) as [H1 H2].
      (* the single query compares epochs where the bulk query compares versions *)
      destruct f as [v|e|e| |]; cbn [compare_db_txn snd]; rewrite ?H1, ?H2; clear H1 H2; try reflexivity;
        destruct (vs_version _ <=? vs_version _); reflexivity.
    + destruct (find_item (user_states (m_db s) u) f); reflexivity.
  - destruct (find_item (user_states (m_db s) u) f); reflexivity.
Qed.

(* C15: hence, with txn_user_state_sound, the bulk query inside a transaction reports the committed
   selection *)
Corollary txn_versions_sound s u f vv : Inv s -> m_active s = true -> rewrite_keeps_version s u ->
  versions_follow_epochs s u -> user_state_versions_one s u f = Some vv ->
  exists x, sel f (user_states (merged s) u) x /\ vv = (vs_version x, vs_value x).
Proof.
  intros HI Ha Hrw Hv E. rewrite (versions_one_agrees s u f Hv) in E.
  destruct (snd (get_user_state s u f false)) as [x|e] eqn:Eg; [|discriminate]. injection E as <-.
  exists x. split; [|reflexivity]. apply (txn_user_state_sound s u f x HI Ha Hrw Eg).
Qed.

Theorem Inv_get_committed s k f : Inv s -> Inv (fst (get_committed s k f)).
Proof. exact (Inv_committed_read s k f). Qed.
