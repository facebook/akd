(* The auditor's rebuild (auditor.rs verify_append_only_hash: a fresh Azks, one batch insertion of
   the proof's nodes) over a prefix-free set of canonical labels of ANY lengths: the result is a
   well-formed trie whose leaves are exactly the given nodes.  It is the insertion theorem of
   InsertRefine.v (stated for prefix-free sets) at the empty tree.  Used by AuditSound.v (C09) and
   AuditComplete.v (C04). *)
From Coq Require Import List Bool Arith NArith Lia Permutation.
From Akd Require Import Bits NodeLabel NodeLabelFacts ElemSet ElemSetFacts Tree TreeFacts Spec SpecFacts Insert InsertRefine.
Import ListNotations.
Open Scope N_scope.

(* no label of the set is a prefix of another one's (the auditor's verify_prefix_free) *)
Definition pfree (S : list elem) : Prop :=
  forall x y, In x S -> In y S -> prefixb (bits_of (e_label x)) (bits_of (e_label y)) = true -> e_label x = e_label y.

Definition nodes_ok (nodes : list elem) : Prop :=
  elabs_ok nodes /\ NoDup (map e_label nodes) /\ pfree nodes.

Section Rebuild.
  Variable empty : nlabel.
  Hypothesis Ce : canonical empty = false.

  Theorem rebuild_spec latest nodes :
    nodes_ok nodes -> (forall x, In x nodes -> bits_of (e_label x) <> []) ->
    exists t num, batch_insert empty (empty_root, latest, 1) nodes = Some (t, latest + 1, num) /\
      wf_root t = true /\ Permutation (leaves t) (map (lf_of (latest + 1)) nodes).
  Proof.
    intros (Hok & Hnd & Hpf) Hnz.
    destruct (batch_insert_gen empty Ce empty_root latest 1 nodes (proj1 azks_new_inv) (fun y (H : In y []) => match H with end)
                Hok Hnd Hpf Hnz (fun x y _ (H : In y []) => match H with end)) as (t & num & EB & Ct & Pt).
    exists t, num. split; [exact EB|]. split; [apply canon_root_wf; exact Ct | exact Pt].
  Qed.

  (* a node carrying the zero-length label cannot be placed below the root: it is dropped *)
  Lemma rebuild_root_only latest x :
    WF (e_label x) -> bits_of (e_label x) = [] ->
    batch_insert empty (empty_root, latest, 1) [x] = Some (empty_root, latest + 1, 1).
  Proof.
    intros Wx Ex. unfold batch_insert.
    assert (Es : eset_from [x] = BinarySearchable [x]).
    { unfold eset_from. cbn [forallb]. rewrite N.eqb_refl. reflexivity. }
    rewrite Es. cbn [eset_is_empty eset_list].
    unfold empty_root. rewrite ins_root_unfold, (finish_single _ _ _ _ (BinarySearchable [x]) _ x eq_refl); [reflexivity|]. cbn [tlabel].
    rewrite get_prefix_ordering_spec by (try exact Wx; apply nl_root_wf). rewrite Ex, bits_of_root. reflexivity.
  Qed.
End Rebuild.
