(* C03 end to end: in every reachable state of the directory, the history proof returned for a
   published label (Complete or MostRecent r) is accepted by the client's verifier - in Default mode
   and with AllowMissingValues - and yields exactly the requested entries of the label's true
   account, newest first.  Under the stated properties of the VRF table (as for C02).
   The acceptance proof is carried out once for the states as presented through any map g that keeps
   user, epoch and version and changes a value at most into the tombstone; the identity gives the
   statement about the directory itself, tomb_state the one about a tombstoned directory (TombHist.v). *)
From Coq Require Import List Bool Arith NArith Lia.
From Akd Require Import NodeLabel NodeLabelFacts ElemSet Hashing Tree SpecFacts Marker MarkerFacts MarkerBounds Directory Verify DirFacts DirRefine HistComplete LookupComplete.
Import ListNotations.
Open Scope N_scope.

Definition countdown (n : N) (k : nat) : list N := map (fun i => n - N.of_nat i) (seq 0 k).

Lemma countdown_S n k : countdown n (S k) = n :: countdown (n - 1) k.
Proof.
  unfold countdown. cbn [seq map]. f_equal; [lia|]. rewrite <- seq_shift, map_map. apply map_ext. intros i. lia.
Qed.

Lemma countdown_length n k : length (countdown n k) = k.
Proof. unfold countdown. rewrite map_length, seq_length. reflexivity. Qed.

Lemma nth_countdown n k i : (i < k)%nat -> nth i (countdown n k) 0 = n - N.of_nat i.
Proof.
  intros H. unfold countdown. rewrite (nth_indep _ 0 (n - N.of_nat 0)) by (rewrite map_length, seq_length; exact H).
  rewrite (map_nth (fun j => n - N.of_nat j)). rewrite seq_nth by exact H. reflexivity.
Qed.

Lemma countdown_firstn : forall j k n, (j <= k)%nat -> firstn j (countdown n k) = countdown n j.
Proof.
  induction j as [|j IH]; intros k n H; [reflexivity|]. destruct k as [|k]; [lia|].
  rewrite !countdown_S. cbn [firstn]. f_equal. apply IH. lia.
Qed.

Lemma consecutive_cons a b r : consecutive_decreasing (a :: b :: r) = (b + 1 =? a) && consecutive_decreasing (b :: r).
Proof. reflexivity. Qed.

Lemma countdown_consecutive : forall k n, (N.of_nat k <= n) -> consecutive_decreasing (countdown n k) = true.
Proof.
  induction k as [|k IH]; intros n H; [reflexivity|]. rewrite countdown_S. destruct k as [|k]; [reflexivity|].
  specialize (IH (n - 1) ltac:(lia)). rewrite countdown_S in IH |- *.
  rewrite consecutive_cons, IH, (proj2 (N.eqb_eq _ _)) by lia. reflexivity.
Qed.

Lemma countdown_min : forall k n a, (0 < k)%nat -> N.of_nat k <= n + 1 ->
  fold_left N.min (countdown n k) a = N.min a (n + 1 - N.of_nat k).
Proof.
  induction k as [|k IH]; intros n a Hk H; [lia|]. rewrite countdown_S. cbn [fold_left].
  destruct k as [|k]; [cbn [countdown seq map fold_left]; f_equal; lia|].
  rewrite (IH (n - 1) (N.min a n) ltac:(lia) ltac:(lia)), <- N.min_assoc. f_equal.
  replace (n - 1 + 1 - N.of_nat (S k)) with (n + 1 - N.of_nat (S (S k))) by lia. apply N.min_r. lia.
Qed.

Lemma countdown_max : forall k n a, n <= a -> fold_left N.max (countdown n k) a = a.
Proof.
  induction k as [|k IH]; intros n a H; [reflexivity|]. rewrite countdown_S. cbn [fold_left].
  replace (N.max a n) with a by lia. apply IH. lia.
Qed.

Lemma consecutive_countdown : forall vr m, consecutive_decreasing (m :: vr) = true ->
  m :: vr = countdown m (S (length vr)) /\ N.of_nat (length vr) <= m.
Proof.
  induction vr as [|b vr IH]; intros m H; rewrite countdown_S; [split; [reflexivity | apply N.le_0_l]|].
  rewrite consecutive_cons in H. apply andb_true_iff in H. destruct H as [H1 H2]. apply N.eqb_eq in H1.
  destruct (IH b H2) as [E Hl]. cbn [length]. replace (m - 1) with b by lia. rewrite <- E. split; [reflexivity | lia].
Qed.

Lemma in_countdown v n k : N.of_nat k <= n -> In v (countdown n k) <-> n - N.of_nat k < v /\ v <= n.
Proof.
  intros Hk. unfold countdown. rewrite in_map_iff. split.
  - intros (i & <- & Hi). apply in_seq in Hi. lia.
  - intros [H1 H2]. exists (N.to_nat (n - v)). split; [lia|]. apply in_seq. lia.
Qed.

Lemma if_both_true (c x y : bool) : x = true -> (c = false -> y = true) -> (if c then x else y) = true.
Proof. intros Hx Hy. destruct c; [exact Hx | exact (Hy eq_refl)]. Qed.

Lemma all_some_map {A B} (f : A -> option B) : forall l r, all_some (map f l) = Some r ->
  Forall2 (fun x y => f x = Some y) l r.
Proof.
  induction l as [|a l IH]; intros r H; [cbn in H; injection H as <-; constructor|].
  destruct (all_some_cons _ _ _ _ H) as (b & r' & E & E2 & ->). constructor; [exact E | exact (IH r' E2)].
Qed.

Lemma marker_future_of s0 m E pa fu : get_marker_versions s0 m E = Some (pa, fu) -> fu = future_of m E.
Proof.
  unfold get_marker_versions, future_of. destruct (find_max_index s0); [|discriminate].
  destruct (find_max_index m); [|discriminate]. destruct (find_max_index E); [|discriminate].
  destruct (_ <? _)%nat; [discriminate|]. congruence.
Qed.

Lemma verify_history_shape_sound E p params past future :
  verify_history_shape E p params = Some (past, future) ->
  exists m k, map up_version (hp_updates p) = countdown m (S k) /\ N.of_nat (S k) <= m /\ m <= E /\
    future = future_of m E /\
    match params with
    | HComplete => N.of_nat (S k) = m
    | HMostRecent r => N.of_nat (S k) <= r /\ (N.of_nat (S k) < r -> N.of_nat (S k) = m)
    end.
Proof.
  unfold verify_history_shape. destruct (map up_version (hp_updates p)) as [|m vr]; [discriminate|].
  destruct (consecutive_decreasing (m :: vr)) eqn:Cd; [|discriminate]. cbn [negb].
  destruct (consecutive_countdown vr m Cd) as [-> Hlen]. set (k := length vr) in *.
  rewrite (countdown_min (S k) m m) by lia. rewrite (countdown_max (S k) m m) by lia. rewrite countdown_length.
  destruct (N.eqb_spec (N.min m (m + 1 - N.of_nat (S k))) 0) as [|H0]; [discriminate|].
  destruct (N.ltb_spec E m) as [|HE]; [discriminate|].
  destruct (negb _) eqn:Ok; [discriminate|]. apply negb_false_iff in Ok.
  destruct (get_marker_versions _ m E) as [[pa fu]|] eqn:Gm; [|discriminate].
  do 4 (destruct (negb (Nat.eqb _ _)); [discriminate|]). intros [= <- <-].
  exists m, k. split; [reflexivity|]. split; [lia|]. split; [exact HE|]. split; [exact (marker_future_of _ _ _ _ _ Gm)|].
  destruct params as [|r].
  - apply N.eqb_eq in Ok. lia.
  - destruct (N.ltb_spec r (N.of_nat (S k))) as [|Hr]; [discriminate|]. split; [exact Hr|]. intros Hlt.
    apply N.ltb_lt in Hlt. rewrite Hlt in Ok. apply N.eqb_eq in Ok. lia.
Qed.

Lemma verify_history_shape_complete E p params m k past future :
  map up_version (hp_updates p) = countdown m (S k) -> N.of_nat (S k) <= m -> m <= E ->
  match params with
  | HComplete => N.of_nat (S k) = m
  | HMostRecent r => N.of_nat (S k) <= r /\ (N.of_nat (S k) < r -> N.of_nat (S k) = m)
  end ->
  get_marker_versions (m + 1 - N.of_nat (S k)) m E = Some (past, future) ->
  length (hp_past_vrf p) = length past -> length (hp_past p) = length past ->
  length (hp_future_vrf p) = length future -> length (hp_future p) = length future ->
  verify_history_shape E p params = Some (past, future).
Proof.
  intros Ev Hk HE Hpar Gm L1 L2 L3 L4. unfold verify_history_shape. rewrite Ev, countdown_S, <- countdown_S.
  rewrite (countdown_consecutive (S k) m Hk). cbn [negb].
  rewrite (countdown_min (S k) m m) by lia. rewrite (countdown_max (S k) m m) by lia. rewrite countdown_length.
  replace (N.min m (m + 1 - N.of_nat (S k))) with (m + 1 - N.of_nat (S k)) by lia.
  assert (E0 : (m + 1 - N.of_nat (S k) =? 0) = false) by (apply N.eqb_neq; lia). rewrite E0, (proj2 (N.ltb_ge _ _) HE).
  assert (Ok : match params with
               | HComplete => m + 1 - N.of_nat (S k) =? 1
               | HMostRecent r => if r <? N.of_nat (S k) then false else if N.of_nat (S k) <? r then m + 1 - N.of_nat (S k) =? 1 else true
               end = true).
  { destruct params as [|r]; [apply N.eqb_eq; lia|]. destruct Hpar as [H1 H2].
    rewrite (proj2 (N.ltb_ge _ _) H1). destruct (N.ltb_spec (N.of_nat (S k)) r) as [H|H]; [apply N.eqb_eq; lia | reflexivity]. }
  rewrite Ok. cbn [negb]. rewrite Gm, L1, L2, L3, L4, !Nat.eqb_refl. reflexivity.
Qed.

Fixpoint sdesc (h : list vrec) : Prop :=
  match h with [] => True | a :: r => (forall x, In x r -> vr_epoch x < vr_epoch a) /\ sdesc r end.
Definition hist_ok (h : list vrec) : Prop :=
  map vr_version h = countdown (N.of_nat (length h)) (length h) /\ sdesc h.

Definition hist_data (st : dstate) (l : bytes) (params : history_params) : list vrec :=
  let all := user_history (d_states st) l (d_epoch st) in
  match params with HComplete => all | HMostRecent n => firstn (N.to_nat n) all end.

Lemma hist_data_firstn st l params :
  exists j, hist_data st l params = firstn j (user_history (d_states st) l (d_epoch st)) /\
    (j <= length (user_history (d_states st) l (d_epoch st)))%nat /\
    N.of_nat j = match params with
                 | HComplete => N.of_nat (length (user_history (d_states st) l (d_epoch st)))
                 | HMostRecent r => N.min r (N.of_nat (length (user_history (d_states st) l (d_epoch st))))
                 end.
Proof.
  unfold hist_data. generalize (user_history (d_states st) l (d_epoch st)) as all. intros all. destruct params as [|r].
  - exists (length all). rewrite firstn_all. auto.
  - exists (Nat.min (N.to_nat r) (length all)). split; [|lia].
    destruct (Nat.le_ge_cases (N.to_nat r) (length all)) as [H|H].
    + rewrite Nat.min_l by exact H. reflexivity.
    + rewrite Nat.min_r by exact H. rewrite firstn_all. apply firstn_all2. exact H.
Qed.

Section HistEnd.
  Variable cfg : config.
  Variable ck : bytes.
  Variable vrf_label : bytes -> bool -> N -> option nlabel.
  Variable vrf_proof : bytes -> bool -> N -> option bytes.
  Variable vrf_check : bytes -> bytes -> bytes -> option bytes.
  Variable pk : bytes.
  Hypothesis Ce : canonical (c_empty_label cfg) = false.
  Hypothesis vrf_good : forall l f v nl, vrf_label l f v = Some nl -> WF nl /\ canonical nl = true /\ llen nl = 256.
  Hypothesis vrf_inj : forall l f v l' f' v' nl, vrf_label l f v = Some nl -> vrf_label l' f' v' = Some nl -> l = l' /\ f = f' /\ v = v'.
  Hypothesis vrf_complete : forall l f v nl pr, vrf_label l f v = Some nl -> vrf_proof l f v = Some pr ->
    vrf_check pk pr (label_input_hash cfg l f v) = Some (lval nl).

  Notation DirInv2 := (DirInv2 cfg ck vrf_label).

  Record Inv3 (st : dstate) : Prop := {
    i3_inv2 : DirInv2 st;
    i3_hist : forall l, hist_ok (user_history (d_states st) l (d_epoch st));
    i3_stale : forall s, In s (d_states st) -> 1 < vr_version s ->
      exists nl, vrf_label (vr_user s) false (vr_version s - 1) = Some nl /\
                 In (LF nl (c_stale_value cfg) (vr_epoch s)) (leaves (d_tree st)) }.

  Lemma dir_new_inv3 : Inv3 dir_new.
  Proof.
    constructor; [apply (dir_new_inv2 cfg ck vrf_label vrf_proof vrf_check pk vrf_good vrf_inj vrf_complete) | | intros s []].
    intros l. cbn. split; [reflexivity | exact I].
  Qed.

  Lemma ver_length st l : Inv3 st -> ver st l = N.of_nat (length (user_history (d_states st) l (d_epoch st))).
  Proof using Type.
    intros [I2 Ih _]. pose proof (d2_inv cfg ck vrf_label _ I2) as I. destruct (Ih l) as [Hv _]. unfold ver.
    destruct (user_history (d_states st) l (d_epoch st)) as [|d0 r] eqn:Eh.
    - destruct (latest_state (d_states st) l (d_epoch st)) as [s|] eqn:El; [|reflexivity].
      apply latest_in_history in El. rewrite Eh in El. destruct El.
    - rewrite (user_history_head vrf_label st l d0 r I Eh).
      cbn [length map] in Hv. rewrite countdown_S in Hv. injection Hv as Hv _. exact Hv.
  Qed.

  Lemma inv3_step st st' news ess : Inv3 st -> step cfg ck vrf_label st st' news ess -> Inv3 st'.
  Proof using Type.
    intros I3 S. pose proof I3 as [I2 Ih Is]. pose proof (d2_inv cfg ck vrf_label _ I2) as I. constructor.
    - exact (inv2_step cfg ck vrf_label st st' news ess I2 S).
    - (* a label's history gains its new state, if any, at the head *)
      intros l. destruct (Ih l) as [Hv Hs]. rewrite (history_step cfg ck vrf_label st st' news ess l I S).
      destruct (find (fun n => bytes_eqb (vr_user n) l) news) as [n|] eqn:F; [|split; assumption].
      apply find_some in F. destruct F as [Hn Hl]. apply bytes_eqb_eq in Hl.
      destruct (sp_news cfg ck vrf_label _ _ _ _ S n Hn) as [Hne Hnv]. split.
      + cbn [map length]. rewrite countdown_S, Hv. f_equal; [|f_equal; clear; lia].
        rewrite Hnv, Hl, (ver_length st l I3). clear. lia.
      + cbn [sdesc]. split; [|exact Hs]. intros x Hx. apply in_user_history in Hx.
        pose proof (di_epochs vrf_label st I x (proj1 Hx)) as Hx'. rewrite Hne. clear - Hx'. lia.
    - (* the stale leaf of the predecessor is among the elements of a new state above version 1 *)
      intros s Hs Hv. apply (step_states cfg ck vrf_label _ _ _ _ s S) in Hs. destruct Hs as [Hs|Hs].
      + destruct (Is s Hs Hv) as (nl & H1 & H2). exists nl. split; [exact H1 | exact (step_leaves_old cfg ck vrf_label _ _ _ _ _ S H2)].
      + destruct (step_leaves_new cfg ck vrf_label _ _ _ _ s S Hs) as (es & (fl & _ & [[Hv1 _]|(_ & sl & Es & ->)]) & Hl); [clear - Hv Hv1; lia|].
        exists sl. split; [exact Es|]. apply (Hl (El sl (c_stale_value cfg))). left. reflexivity.
  Qed.

  Theorem inv3_reachable reqs : Inv3 (run_publishes cfg ck vrf_label dir_new reqs).
  Proof using Ce vrf_good vrf_inj vrf_complete.
    apply (run_publishes_ind cfg ck vrf_label Ce vrf_good vrf_inj Inv3);
      [intros st st' news ess _; apply inv3_step | apply dir_new_inv | apply dir_new_inv3].
  Qed.

  Notation root st := (root_hash cfg true (d_tree st)).
  Definition entry (s : vrec) : verify_result := VRes (vr_epoch s) (vr_version s) (vr_value s).

  Lemma inv3_canon st : Inv3 st -> canon_root (d_tree st).
  Proof. intros [I2 _ _]. apply (di_tree vrf_label st (d2_inv cfg ck vrf_label st I2)). Qed.

  Lemma sdesc_firstn : forall k h, sdesc h -> sdesc (firstn k h).
  Proof.
    induction k as [|k IH]; intros h H; [exact I|]. destruct h as [|a r]; [exact I|]. cbn [firstn sdesc]. destruct H as [H1 H2].
    split; [|apply IH; exact H2]. intros x Hx. apply H1. apply (in_firstn x k). exact Hx.
  Qed.

  Lemma forall3_maps {X Y Z} (P : N -> X -> Z -> bool) (f1 : N -> option X) (f2 : N -> option Y) (g : Y -> Z) :
    forall vs xs ys, (forall v x y, In v vs -> f1 v = Some x -> f2 v = Some y -> P v x (g y) = true) ->
    all_some (map f1 vs) = Some xs -> all_some (map f2 vs) = Some ys -> forall3 P vs xs (map g ys) = true.
  Proof.
    induction vs as [|v vs IH]; intros xs ys H H1 H2; [reflexivity|].
    destruct (all_some_cons _ _ _ _ H1) as (x & xs' & E1 & E1' & ->). destruct (all_some_cons _ _ _ _ H2) as (y & ys' & E2 & E2' & ->).
    cbn [map forall3]. rewrite (H v x y (or_introl eq_refl) E1 E2). cbn [andb].
    apply IH; [intros v' x' y' Hv'; apply H; right; exact Hv' | exact E1' | exact E2'].
  Qed.

  Lemma hist_data_ok st l params : Inv3 st ->
    (forall s, In s (hist_data st l params) -> In s (d_states st) /\ vr_user s = l) /\ sdesc (hist_data st l params) /\
    exists j, N.of_nat j <= ver st l /\
      N.of_nat j = match params with HComplete => ver st l | HMostRecent r => N.min r (ver st l) end /\
      map vr_version (hist_data st l params) = countdown (ver st l) j.
  Proof.
    intros I3. destruct (i3_hist st I3 l) as [Hv Hs]. rewrite (ver_length st l I3).
    destruct (hist_data_firstn st l params) as (j & -> & Hj & Ej). split; [|split].
    - intros s Hin. apply in_firstn, in_user_history in Hin. split; apply Hin.
    - apply sdesc_firstn. exact Hs.
    - exists j. split; [clear - Hj; lia|]. split; [exact Ej|]. rewrite <- firstn_map, Hv. apply countdown_firstn. exact Hj.
  Qed.

  Section Presented.
  Variable g : vrec -> vrec.
  Hypothesis g_user : forall s, vr_user (g s) = vr_user s.
  Hypothesis g_epoch : forall s, vr_epoch (g s) = vr_epoch s.
  Hypothesis g_version : forall s, vr_version (g s) = vr_version s.
  Hypothesis g_value : forall s, vr_value (g s) = vr_value s \/ vr_value (g s) = GenConsts.TOMBSTONE.

  Definition present (st : dstate) : dstate := DS (d_tree st) (d_epoch st) (d_num st) (map g (d_states st)).

  Lemma single_update_ok_g st l s u am :
    Inv3 st -> In s (d_states st) -> vr_user s = l ->
    single_update_proof cfg ck vrf_label vrf_proof (d_tree st) l (g s) = Some u ->
    (am = true \/ vr_value (g s) = vr_value s) ->
    verify_single_update cfg vrf_check pk (root st) l am u = Some (entry (g s)) /\ up_epoch u = vr_epoch s /\ up_version u = vr_version s.
  Proof.
    intros I3 Hs Hu Hsp Ham. pose proof I3 as [I2 _ Istale].
    destruct (single_update_proof_inv _ _ _ _ _ _ _ _ Hsp) as (el & ep & Eel & Eep & Ue & Uv & Uval & Uvrf & Uex & Un & Hp).
    rewrite g_version in *. rewrite g_epoch in Ue.
    destruct (stored_existence cfg ck vrf_label vrf_proof vrf_check pk vrf_good vrf_complete st s l _ el ep I2 Hs Hu eq_refl Eel Eep) as [Vex Hhash].
    unfold verify_single_update, entry. rewrite Ue, Uv, Uval, Uvrf, Uex, Un, g_epoch, g_version.
    rewrite if_both_true; [|exact Vex|].
    2:{ intros Eb. assert (Ev : vr_value (g s) = vr_value s).
        { destruct Ham as [->|Hv]; [|exact Hv]. cbn [andb] in Eb. destruct (g_value s) as [Hv|Hv]; [exact Hv|].
          unfold is_tombstone in Eb. rewrite Hv in Eb. rewrite (proj2 (bytes_eqb_eq _ _) eq_refl) in Eb. discriminate. }
        rewrite Ev. unfold verify_existence_with_val. rewrite Vex, Hhash. unfold leaf_hash_with_value, fresh_value.
        rewrite (proj2 (bytes_eqb_eq _ _) eq_refl). reflexivity. }
    cbn [negb]. split; [|split; reflexivity].
    destruct (N.ltb_spec 1 (vr_version s)) as [Hv1|Hv1].
    - (* the stale leaf of the predecessor went in together with this version, stamped with its epoch *)
      destruct Hp as (pl & pp & Epl & Epp & -> & ->). rewrite (proj2 (N.leb_gt _ _) Hv1).
      destruct (Istale s Hs Hv1) as (nl & Hnl & Hin2). rewrite Hu, Epl in Hnl. injection Hnl as <-.
      destruct (leaf_existence cfg vrf_label vrf_proof vrf_check pk vrf_good vrf_complete _ l false _ pl pp _ _ (inv3_canon st I3) Epl Epp Hin2) as [Vst Hst].
      unfold verify_existence_with_commitment. rewrite Vst, Hst, (proj2 (bytes_eqb_eq _ _) eq_refl). reflexivity.
    - rewrite (proj2 (N.leb_le _ _) Hv1). reflexivity.
  Qed.

  Lemma updates_ok_g st l am : Inv3 st -> forall data ups prev,
    (forall s, In s data -> In s (d_states st) /\ vr_user s = l) -> sdesc data ->
    (match prev, data with Some pe, d0 :: _ => vr_epoch d0 < pe | _, _ => True end) ->
    (am = true \/ forall s, In s data -> vr_value (g s) = vr_value s) ->
    all_some (map (single_update_proof cfg ck vrf_label vrf_proof (d_tree st) l) (map g data)) = Some ups ->
    verify_updates cfg vrf_check pk (root st) l am prev ups = Some (map entry (map g data)) /\ map up_version ups = map vr_version data.
  Proof.
    intros I3. induction data as [|s data IH]; intros ups prev Hin Hsd Hprev Ham H.
    - cbn in H. injection H as <-. split; reflexivity.
    - cbn [map] in H. destruct (all_some_cons _ _ _ _ H) as (u & us & Eu & Eus & ->). destruct (Hin s (or_introl eq_refl)) as [Hs Hu].
      destruct (single_update_ok_g st l s u am I3 Hs Hu Eu ltac:(destruct Ham as [->|Hv]; [left; reflexivity | right; apply Hv; left; reflexivity])) as (V1 & V2 & V3).
      cbn [sdesc] in Hsd. destruct Hsd as [Hlt Hsd'].
      destruct (IH us (Some (vr_epoch s)) (fun x Hx => Hin x (or_intror Hx)) Hsd'
                  ltac:(destruct data as [|d1 r]; [exact I | apply Hlt; left; reflexivity])
                  ltac:(destruct Ham as [->|Hv]; [left; reflexivity | right; intros x Hx; apply Hv; right; exact Hx]) Eus) as [W1 W2].
      cbn [verify_updates map].
      assert (Ep : match prev with Some pe => pe <? up_epoch u | None => false end = false).
      { destruct prev as [pe|]; [|reflexivity]. rewrite V2. apply N.ltb_ge. apply N.lt_le_incl. exact Hprev. }
      rewrite Ep, V1, V2, W1, V3, W2. split; reflexivity.
  Qed.

  Lemma hist_data_present st l params : hist_data (present st) l params = map g (hist_data st l params).
  Proof.
    unfold hist_data, present. cbn [d_states d_epoch]. rewrite (user_history_map g g_user g_epoch).
    destruct params as [|r]; [reflexivity|]. apply firstn_map.
  Qed.

  Theorem key_history_complete_g st l params am p eh :
    Inv3 st -> key_history cfg ck vrf_label vrf_proof (present st) l params = DOk (p, eh) ->
    (am = true \/ forall s, In s (hist_data st l params) -> vr_value (g s) = vr_value s) ->
    key_history_verify cfg vrf_check pk (snd eh) (fst eh) l p params am = Some (map entry (map g (hist_data st l params))).
  Proof.
    intros I3 Hk Ham. pose proof I3 as [I2 _ _]. pose proof I2 as [I _ Iv].
    destruct (key_history_inv _ _ _ _ _ _ _ _ _ Hk)
      as (d0 & rest & sv & ev & past & future & ups & pvp & pls & fvp & fls & Ed & Es & Hs0 & Ee & He0 & Em & Eu & Epvp & Epls & Efvp & Efls & -> & ->).
    fold (hist_data (present st) l params) in Ed, Es, Ee, Eu. rewrite hist_data_present in Ed, Es, Ee, Eu.
    change (d_tree (present st)) with (d_tree st) in *. change (d_epoch (present st)) with (d_epoch st) in *.
    destruct (hist_data_ok st l params I3) as (Hin_data & Hsd & j & HjN & Ej & Hvd). pose proof (ver_le_epoch vrf_label st l I) as HNe.
    (* the versions of the presented states are those of the stored ones: ver, ver - 1, ..., and the head has ver *)
    assert (Hvg : map vr_version (map g (hist_data st l params)) = countdown (ver st l) j).
    { rewrite map_map, <- Hvd. apply map_ext. exact g_version. }
    rewrite Hvg in Es, Ee. destruct j as [|k]; [rewrite Ed in Hvg; discriminate|].
    assert (Hd0 : vr_version d0 = ver st l) by (rewrite Ed, countdown_S in Hvg; injection Hvg as Hvg _; exact Hvg).
    rewrite Hd0 in Es, Ee. clear Hd0 Hvg Ed d0 rest.
    rewrite (countdown_min (S k)) in Es by (clear - HjN; lia). rewrite countdown_max in Ee by apply N.le_refl. subst ev.
    replace (N.min (ver st l) (ver st l + 1 - N.of_nat (S k))) with (ver st l + 1 - N.of_nat (S k)) in Es by (clear; lia). subst sv.
    destruct (updates_ok_g st l am I3 _ ups None Hin_data Hsd Logic.I Ham Eu) as [Vups Vvers].
    unfold key_history_verify. cbn [epoch_hash fst snd].
    change (d_tree (present st)) with (d_tree st). change (d_epoch (present st)) with (d_epoch st).
    rewrite (verify_history_shape_complete (d_epoch st) _ params (ver st l) k past future).
    - cbn [hp_updates hp_past_vrf hp_past hp_future_vrf hp_future]. rewrite Vups.
      (* past markers are earlier versions of the label: stored, hence in the tree *)
      rewrite (forall3_maps _ (fun v => vrf_proof l true v) (fun v => vrf_label l true v) _ past pvp pls); [|clear Ham|exact Epvp|exact Epls].
      2:{ intros v vp nl Hv Hvp Hnl. destruct (get_marker_versions_past _ _ _ past future Hs0 Em v Hv) as [B1 B2].
          destruct (Iv l v B1 ltac:(clear - B2 HjN; lia)) as (sm & Hsm & Hum & Hvm).
          exact (proj1 (stored_existence cfg ck vrf_label vrf_proof vrf_check pk vrf_good vrf_complete st sm l v nl vp I2 Hsm Hum Hvm Hnl Hvp)). }
      (* future markers are versions the label has not reached *)
      rewrite (forall3_maps _ (fun v => vrf_proof l true v) (fun v => vrf_label l true v) _ future fvp fls); [reflexivity| |exact Efvp|exact Efls].
      intros v vp nl Hv Hvp Hnl. destruct (get_marker_versions_future _ _ _ past future He0 HNe Em v Hv) as [Hgt _].
      exact (label_nonexistence cfg vrf_label vrf_proof vrf_check pk Ce vrf_good vrf_inj vrf_complete st l true v nl vp I Hnl Hvp Hgt).
    - cbn [hp_updates]. rewrite Vvers. exact Hvd.
    - exact HjN.
    - exact HNe.
    - clear - Ej HjN. destruct params as [|r]; [exact Ej | lia].
    - exact Em.
    - exact (all_some_length _ _ _ Epvp).
    - cbn [hp_past]. rewrite map_length. exact (all_some_length _ _ _ Epls).
    - exact (all_some_length _ _ _ Efvp).
    - cbn [hp_future]. rewrite map_length. exact (all_some_length _ _ _ Efls).
  Qed.
  End Presented.

  Lemma present_id st : present (fun s => s) st = st.
  Proof. destruct st. unfold present. rewrite map_id. reflexivity. Qed.

  (* C03: the client accepts the history proof and obtains exactly the requested entries *)
  Theorem key_history_complete st l params am p eh :
    Inv3 st -> key_history cfg ck vrf_label vrf_proof st l params = DOk (p, eh) ->
    key_history_verify cfg vrf_check pk (snd eh) (fst eh) l p params am = Some (map entry (hist_data st l params)).
  Proof.
    intros I3 Hk.
    pose proof (key_history_complete_g (fun s => s) (fun _ => eq_refl) (fun _ => eq_refl) (fun _ => eq_refl)
                  (fun _ => or_introl eq_refl) st l params am p eh I3) as G.
    rewrite present_id, map_id in G. apply G; [exact Hk | right; reflexivity].
  Qed.

  Theorem key_history_reachable reqs l params am p eh :
    let st := run_publishes cfg ck vrf_label dir_new reqs in
    key_history cfg ck vrf_label vrf_proof st l params = DOk (p, eh) ->
    key_history_verify cfg vrf_check pk (snd eh) (fst eh) l p params am = Some (map entry (hist_data st l params)).
  Proof. cbv zeta. apply key_history_complete. apply inv3_reachable. Qed.
End HistEnd.