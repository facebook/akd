(* C02 end to end: in every reachable state of the directory, the proof returned for a published
   label is accepted by the client's verifier and yields exactly the label's latest
   (epoch, version, value) - under the stated properties of the VRF table. *)
From Coq Require Import List NArith Lia.
From Akd Require Import NodeLabel NodeLabelFacts ElemSet Hashing Tree TreeFacts TreeComplete SpecFacts MemComplete Marker MarkerFacts Directory Verify DirFacts DirRefine.
Import ListNotations.
Open Scope N_scope.

Section LookupComplete.
  Variable cfg : config.
  Variable ck : bytes.
  Variable vrf_label : bytes -> bool -> N -> option nlabel.
  Variable vrf_proof : bytes -> bool -> N -> option bytes.
  Variable vrf_check : bytes -> bytes -> bytes -> option bytes.
  Variable pk : bytes.
  Hypothesis Ce : canonical (c_empty_label cfg) = false.
  Hypothesis vrf_good : forall l f v nl, vrf_label l f v = Some nl -> WF nl /\ canonical nl = true /\ llen nl = 256.
  Hypothesis vrf_inj : forall l f v l' f' v' nl, vrf_label l f v = Some nl -> vrf_label l' f' v' = Some nl -> l = l' /\ f = f' /\ v = v'.
  (* the proof the server hands out for (l, f, v) verifies under the public key and its output is the
     node label (C18: completeness of the VRF and of proof (de)serialisation) *)
  Hypothesis vrf_complete : forall l f v nl pr, vrf_label l f v = Some nl -> vrf_proof l f v = Some pr ->
    vrf_check pk pr (label_input_hash cfg l f v) = Some (lval nl).

  Notation DirInv := (DirInv vrf_label).

  Definition fresh_leaf (s : vrec) : option leaf :=
    match vrf_label (vr_user s) true (vr_version s) with
    | Some nl => Some (LF nl (fresh_value cfg ck nl (vr_version s) (vr_value s)) (vr_epoch s))
    | None => None
    end.
  Record DirInv2 (st : dstate) : Prop := {
    d2_inv : DirInv st;
    d2_leaf : forall s, In s (d_states st) -> exists y, fresh_leaf s = Some y /\ In y (leaves (d_tree st));
    d2_versions : forall l v, 1 <= v -> v <= ver st l -> exists s, In s (d_states st) /\ vr_user s = l /\ vr_version s = v }.

  Lemma dir_new_inv2 : DirInv2 dir_new.
  Proof using vrf_good vrf_inj vrf_complete.
    constructor; [apply dir_new_inv | intros s [] |]. intros l v H1 H2. unfold ver in H2. cbn in H2. clear - H1 H2. lia.
  Qed.

  Lemma inv2_step st st' news ess : DirInv2 st -> step cfg ck vrf_label st st' news ess -> DirInv2 st'.
  Proof using Type.
    intros [I Ileaf Iv] S. constructor.
    - exact (step_inv cfg ck vrf_label st st' news ess I S).
    - intros s Hs. apply (step_states cfg ck vrf_label _ _ _ _ s S) in Hs. destruct Hs as [Hs|Hs].
      + destruct (Ileaf s Hs) as (y & Hy & Hin). exists y. split; [exact Hy | exact (step_leaves_old cfg ck vrf_label _ _ _ _ y S Hin)].
      + destruct (step_leaves_new cfg ck vrf_label _ _ _ _ s S Hs) as (es & (fl & Ef & Hes) & Hl).
        eexists. split; [unfold fresh_leaf; rewrite Ef; reflexivity|].
        apply (Hl (El fl (fresh_value cfg ck fl (vr_version s) (vr_value s)))).
        destruct Hes as [[_ ->]|(_ & sl & _ & ->)]; [left | right; left]; reflexivity.
    - (* the versions of a label are those it had, and its new one *)
      intros l v Hv1 Hv2. rewrite (ver_step cfg ck vrf_label st st' news ess l I S) in Hv2.
      assert (Hold : v <= ver st l -> exists s, In s (d_states st') /\ vr_user s = l /\ vr_version s = v).
      { intros H. destruct (Iv l v Hv1 H) as (s & Hs & Hu & Hvv). exists s.
        split; [apply (step_states cfg ck vrf_label _ _ _ _ s S); left; exact Hs | split; assumption]. }
      destruct (find (fun n => bytes_eqb (vr_user n) l) news) as [n|] eqn:F; [|exact (Hold Hv2)].
      destruct (N.eq_dec v (ver st l + 1)) as [->|Hne]; [|apply Hold; clear - Hv2 Hne; lia].
      apply find_some in F. destruct F as [Hn Hl]. apply bytes_eqb_eq in Hl. exists n.
      split; [apply (step_states cfg ck vrf_label _ _ _ _ n S); right; exact Hn|]. split; [exact Hl|].
      rewrite <- Hl. apply (sp_news cfg ck vrf_label _ _ _ _ S n Hn).
  Qed.

  Theorem inv2_reachable reqs : DirInv2 (run_publishes cfg ck vrf_label dir_new reqs).
  Proof using Ce vrf_good vrf_inj vrf_complete.
    apply (run_publishes_ind cfg ck vrf_label Ce vrf_good vrf_inj DirInv2);
      [intros st st' news ess _; apply inv2_step | apply dir_new_inv | apply dir_new_inv2].
  Qed.

  Lemma verify_label_ok l f v nl pr : vrf_label l f v = Some nl -> vrf_proof l f v = Some pr ->
    verify_label cfg vrf_check pk l f v pr nl = true.
  Proof.
    intros Hl Hp. unfold verify_label. rewrite (vrf_complete l f v nl pr Hl Hp).
    rewrite (full_label_eta nl (proj2 (proj2 (vrf_good _ _ _ _ Hl)))). apply nl_eqb_eq. reflexivity.
  Qed.

  Lemma d2_fresh st s nl : DirInv2 st -> In s (d_states st) -> vrf_label (vr_user s) true (vr_version s) = Some nl ->
    In (LF nl (fresh_value cfg ck nl (vr_version s) (vr_value s)) (vr_epoch s)) (leaves (d_tree st)).
  Proof using Type.
    intros I2 Hs Hl. destruct (d2_leaf st I2 s Hs) as (y & Hy & Hin). unfold fresh_leaf in Hy. rewrite Hl in Hy. injection Hy as <-. exact Hin.
  Qed.

  Lemma leaf_existence t l f v nl pr c e :
    canon_root t -> vrf_label l f v = Some nl -> vrf_proof l f v = Some pr -> In (LF nl c e) (leaves t) ->
    verify_existence cfg vrf_check pk (root_hash cfg true t) l f v pr (get_membership_proof cfg t nl) = true /\
    mp_hash_val (get_membership_proof cfg t nl) = c_leaf_hash cfg c e.
  Proof using vrf_good vrf_complete.
    intros Hc Hl Hp Hin. destruct (vrf_good _ _ _ _ Hl) as (W & C & L).
    destruct (membership_proof_of_leaf cfg t (LF nl c e) Hc Hin W C) as [Lb Hv].
    { cbn [lf_label]. rewrite length_bits_of by exact W. rewrite L. reflexivity. }
    cbn [lf_label lf_value lf_epoch] in Lb, Hv. split; [|exact Hv].
    unfold verify_existence. rewrite Lb, (verify_label_ok l f v nl pr Hl Hp).
    apply gen_membership_verifies; apply (wf_root_shape t (canon_root_wf t Hc)).
  Qed.

  Lemma stored_existence st s l v nl pr : DirInv2 st -> In s (d_states st) -> vr_user s = l -> vr_version s = v ->
    vrf_label l true v = Some nl -> vrf_proof l true v = Some pr ->
    verify_existence cfg vrf_check pk (root_hash cfg true (d_tree st)) l true v pr (get_membership_proof cfg (d_tree st) nl) = true /\
    mp_hash_val (get_membership_proof cfg (d_tree st) nl) = c_leaf_hash cfg (fresh_value cfg ck nl v (vr_value s)) (vr_epoch s).
  Proof using vrf_good vrf_complete.
    intros I2 Hs <- <- Hl Hp.
    exact (leaf_existence _ _ true _ nl pr _ _ (proj1 (di_tree _ st (d2_inv st I2))) Hl Hp (d2_fresh st s nl I2 Hs Hl)).
  Qed.

  Lemma label_nonexistence st l f v nl pr : DirInv st -> vrf_label l f v = Some nl -> vrf_proof l f v = Some pr ->
    (if f : bool then ver st l < v else ver st l <= v) ->
    verify_nonexistence cfg vrf_check pk (root_hash cfg true (d_tree st)) l f v pr (get_non_membership_proof cfg (d_tree st) nl) = true.
  Proof using Ce vrf_good vrf_inj vrf_complete.
    intros I Hl Hp Hv. unfold verify_nonexistence.
    assert (Enpl : np_label (get_non_membership_proof cfg (d_tree st) nl) = nl).
    { unfold get_non_membership_proof. destruct (lcp_walk cfg walk_fuel (d_tree st) nl). reflexivity. }
    rewrite Enpl, (verify_label_ok l f v nl pr Hl Hp). exact (absent_label_nonmember cfg vrf_label Ce vrf_good vrf_inj st l f v nl I Hl Hv).
  Qed.

  (* C02: the client accepts the proof and obtains the latest (epoch, version, value) *)
  Theorem lookup_complete st l p eh :
    DirInv2 st -> lookup cfg ck vrf_label vrf_proof st l = DOk (p, eh) ->
    exists s, latest_state (d_states st) l (d_epoch st) = Some s /\
              lookup_verify cfg vrf_check pk (snd eh) (fst eh) l p = Some (VRes (vr_epoch s) (vr_version s) (vr_value s)).
  Proof.
    intros I2 Hlk. pose proof I2 as [I _ Iv].
    destruct (lookup_inv _ _ _ _ _ _ _ _ Hlk) as (s & el & ml & nl & ep & mp & np & El & Eel & Eml & Enl & Eep & Emp & Enp & -> & ->).
    exists s. split; [exact El|].
    destruct (latest_state_max _ _ _ _ El) as (Hin & Hu & _).
    pose proof (version_le_epoch vrf_label st s I Hin) as Hve. pose proof (di_versions vrf_label st I l s El) as Hv1.
    pose proof (ver_latest st l s El) as Hver.
    unfold lookup_verify. cbn [epoch_hash fst snd lp_version lp_value lp_epoch lp_nonce lp_existence_vrf lp_existence lp_marker_vrf lp_marker lp_freshness_vrf lp_freshness].
    rewrite (proj2 (N.ltb_ge _ _) Hve).
    (* existence with value *)
    destruct (stored_existence st s l _ el ep I2 Hin Hu eq_refl Eel Eep) as [Vex Hh].
    unfold verify_existence_with_val. rewrite Vex, Hh. unfold leaf_hash_with_value, fresh_value.
    rewrite (proj2 (bytes_eqb_eq _ _) eq_refl). cbn [andb negb].
    assert (E0 : vr_version s <> 0) by (clear - Hv1; lia). rewrite (proj2 (N.eqb_neq _ _) E0).
    (* marker: an earlier version, stored as well *)
    destruct (lookup_marker_bounds (vr_version s) Hv1) as [Hm1 Hm2].
    destruct (Iv l (lookup_marker (vr_version s)) Hm1 ltac:(rewrite Hver; exact Hm2)) as (sm & Hsm & Hum & Hvm).
    rewrite (proj1 (stored_existence st sm l _ ml mp I2 Hsm Hum Hvm Eml Emp)). cbn [negb].
    (* freshness: the stale label of the current version is not in the tree *)
    rewrite (label_nonexistence st l false _ nl np I Enl Enp ltac:(rewrite Hver; apply N.le_refl)). reflexivity.
  Qed.
End LookupComplete.
