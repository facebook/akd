(* Completeness of non-membership proofs (C05, used by C02/C03): on a canonical tree whose leaves
   carry 256-bit labels, the proof the prover's walk produces for an absent 256-bit label verifies
   against the root hash - for every configuration whose empty label is not canonical. *)
From Coq Require Import List Bool Arith NArith Lia.
From Akd Require Import Bits NodeLabel NodeLabelFacts ElemSetFacts Hashing Tree TreeFacts TreeComplete Spec SpecFacts InsertRefine.
Import ListNotations.
Open Scope N_scope.

Section NonMem.
  Variable cfg : config.
  Hypothesis Ce : canonical (c_empty_label cfg) = false.

  (* where the walk can stand: what the root and a canonical subtree have in common *)
  Definition pos (cur : tree) : Prop :=
    WF (tlabel cur) /\ canonical (tlabel cur) = true /\
    forall d c, child cur d = Some c -> pord (bits_of (tlabel cur)) (bits_of (tlabel c)) = Some d /\ canon c.

  Lemma pos_child cur d c : pos cur -> child cur d = Some c -> pord (bits_of (tlabel cur)) (bits_of (tlabel c)) = Some d /\ canon c.
  Proof using. intros H. apply H. Qed.

  Lemma canon_pos c : canon c -> pos c.
  Proof using.
    intros Hc. split; [apply (canon_label c Hc)|]. split; [apply (canon_label c Hc)|].
    destruct c as [|l le mde a b]; [intros d c [=]|].
    destruct (canon_node_inv _ _ _ _ _ Hc) as (a' & b' & -> & -> & _ & _ & Pa & Pb & Ca & Cb & _ & _).
    intros [|] c [= <-]; split; assumption.
  Qed.

  Lemma canon_root_pos t : canon_root t -> pos t.
  Proof using.
    destruct t as [|l le mde a b]; [intros []|]. intros (-> & Ca & Cb & _ & _).
    split; [apply nl_root_wf|]. split; [apply nl_root_wf|].
    intros [|] c Ec; cbn [child] in Ec; subst; assumption.
  Qed.

  Lemma leaf_side cur d y :
    pos cur -> In y (leaves cur) -> pord (bits_of (tlabel cur)) (bits_of (lf_label y)) = Some d ->
    exists c, child cur d = Some c /\ In y (leaves c).
  Proof using.
    intros Hpos Hy Hp. destruct (is_leaf cur) eqn:Hl.
    - destruct cur; [|discriminate]. destruct Hy as [<-|[]]. cbn [tlabel lf_label] in Hp. rewrite pord_irrefl in Hp. discriminate.
    - destruct (leaves_node_in cur y Hy Hl) as (dir & c & Ec & Hyc). destruct (pos_child cur dir c Hpos Ec) as [Pc Cc].
      rewrite (pord_extend _ _ _ _ Pc (leaves_prefix c (wf_sub_wfg c (proj1 Cc)) y Hyc)) in Hp. injection Hp as <-.
      exists c. split; assumption.
  Qed.

  (* the common prefix of the two slot labels is the label of the position; with an empty slot the
     verifier takes the root label, and only the root has empty slots *)
  Lemma slots_lcp l le mde a b : pos (Node l le mde a b) -> (a = None \/ b = None -> l = nl_root) ->
    (if nl_eqb (get_longest_common_prefix (c_empty_label cfg) (slot_label cfg a) (slot_label cfg b)) (c_empty_label cfg)
     then nl_root else get_longest_common_prefix (c_empty_label cfg) (slot_label cfg a) (slot_label cfg b)) = l.
  Proof using Ce.
    intros (Wl & Cl & Hch) Hmiss. destruct a as [ca|], b as [cb|]; cbn [slot_label].
    - destruct (Hch false ca eq_refl) as [Pa Cca]. destruct (Hch true cb eq_refl) as [Pb Ccb].
      destruct (canon_label ca Cca) as [Wa Ca]. destruct (canon_label cb Ccb) as [Wb Cb].
      destruct (glcp_good (c_empty_label cfg) (tlabel ca) (tlabel cb) Wa Wb Ca Cb Ce) as (Gb & Gw & Gc). cbv zeta in Gb, Gw, Gc.
      rewrite (canonical_not_empty _ _ Ce Gc).
      apply bits_of_inj; try assumption. rewrite Gb. apply (lcp_branch _ false); apply pord_prefix; assumption.
    - rewrite glcp_empty_r, nl_eqb_refl. symmetry. apply Hmiss. right. reflexivity.
    - rewrite glcp_empty_l, nl_eqb_refl. symmetry. apply Hmiss. left. reflexivity.
    - rewrite glcp_empty_l, nl_eqb_refl. symmetry. apply Hmiss. left. reflexivity.
  Qed.

  (* the verifier's test for an empty child slot *)
  Lemma slot_empty_test o : (forall c, o = Some c -> canon c) ->
    nl_eqb (slot_label cfg o) (c_empty_label cfg) && bytes_eqb (slot_value cfg o) (c_empty_node_hash cfg) =
    match o with Some _ => false | None => true end.
  Proof using Ce.
    destruct o as [c|]; intros H; cbn [slot_label slot_value].
    - rewrite (canonical_not_empty _ _ Ce (proj2 (canon_label c (H c eq_refl)))). reflexivity.
    - rewrite nl_eqb_refl, bytes_eqb_refl. reflexivity.
  Qed.

  (* ... so it recomputes the hash of the position *)
  Lemma slots_hash l le mde a b : (forall c, a = Some c -> canon c) -> (forall c, b = Some c -> canon c) ->
    (if (nl_eqb (slot_label cfg a) (c_empty_label cfg) && bytes_eqb (slot_value cfg a) (c_empty_node_hash cfg)) &&
        (nl_eqb (slot_label cfg b) (c_empty_label cfg) && bytes_eqb (slot_value cfg b) (c_empty_node_hash cfg))
     then c_empty_root_value cfg
     else c_parent_hash cfg (slot_value cfg a) (lvalue cfg (slot_label cfg a)) (slot_value cfg b) (lvalue cfg (slot_label cfg b)))
    = node_value cfg true (Node l le mde a b).
  Proof using Ce.
    intros Ca Cb. rewrite (slot_empty_test a Ca), (slot_empty_test b Cb).
    change (node_value cfg true (Node l le mde a b)) with (hashval cfg true (Node l le mde a b)).
    rewrite hashval_node_slots. destruct a, b; reflexivity.
  Qed.

  Variable x : nlabel.
  Hypothesis Wx : WF x.
  Hypothesis Cx : canonical x = true.
  Hypothesis Lx : length (bits_of x) = 256%nat.

  Definition avoids (o : option tree) : Prop :=
    match o with Some c => prefixb (bits_of (tlabel c)) (bits_of x) = false | None => True end.

  Definition stops_at (n : tree) : Prop :=
    exists d, pord (bits_of (tlabel n)) (bits_of x) = Some d /\ avoids (child n d).

  Lemma walk_reaches : forall fuel cur,
    pos cur -> prefixb (bits_of (tlabel cur)) (bits_of x) = true ->
    (257 <= fuel + length (bits_of (tlabel cur)))%nat ->
    let n := fst (lcp_walk cfg fuel cur x) in
    (n = cur \/ canon n) /\ (tlabel n = x \/ stops_at n) /\
    (forall y, In y (leaves cur) -> lf_label y = x -> In y (leaves n)).
  Proof using Wx Cx.
    induction fuel as [|f IH]; intros cur Hpos Hpre Hf; pose proof Hpos as (Wc & Cc & _).
    - exfalso. pose proof (bits_le_256 _ Wc) as Hl. clear - Hf Hl. lia.
    - assert (Here : tlabel cur = x \/ stops_at cur ->
                     (cur = cur \/ canon cur) /\ (tlabel cur = x \/ stops_at cur) /\ (forall y, In y (leaves cur) -> lf_label y = x -> In y (leaves cur))).
      { intros H. split; [left; reflexivity|]. split; [exact H | auto]. }
      cbn [lcp_walk]. destruct (nl_eqb x (tlabel cur)) eqn:Ex0; [apply Here; left; symmetry; apply nl_eqb_eq; exact Ex0|].
      rewrite (get_prefix_ordering_spec _ _ Wc Wx).
      destruct (pord (bits_of (tlabel cur)) (bits_of x)) as [d|] eqn:Hp.
      2:{ rewrite (bits_of_inj _ _ Wx Wc Cx Cc (pord_None_prefix _ _ Hpre Hp)), nl_eqb_refl in Ex0. discriminate. }
      destruct (child cur d) as [c|] eqn:Ec; [|apply Here; right; exists d; rewrite Ec; split; [exact Hp | exact I]].
      destruct (pos_child cur d c Hpos Ec) as [Pc Ccan]. destruct (canon_label c Ccan) as [Wlc Clc].
      (* the walk goes on into the child iff the child's label is a prefix of x *)
      rewrite (descend_test _ _ Wlc Clc Wx Cx). destruct (prefixb (bits_of (tlabel c)) (bits_of x)) eqn:Epx.
      + destruct (child_elem cfg (child cur (negb d))) as [sl sv].
        assert (Hf' : (257 <= f + length (bits_of (tlabel c)))%nat) by (apply pord_length in Pc; clear - Pc Hf; lia).
        specialize (IH c (canon_pos c Ccan) Epx Hf'). destruct (lcp_walk cfg f c x) as [n sibs]. cbn [fst] in *.
        destruct IH as (Hn & Hs & Hb). split; [right; destruct Hn as [->|Hn]; assumption|]. split; [exact Hs|].
        intros y Hy Ey. apply Hb; [|exact Ey]. rewrite <- Ey in Hp. destruct (leaf_side cur d y Hpos Hy Hp) as (c' & Ec' & Hyc). congruence.
      + apply Here. right. exists d. rewrite Ec. split; [exact Hp | exact Epx].
  Qed.

  (* where x stops, it is below neither child: the other child continues with the other bit *)
  Lemma stop_avoids n dir : pos n -> stops_at n -> avoids (child n dir).
  Proof using.
    intros Hpos (d & Hp & Hch). destruct (Bool.bool_dec dir d) as [->|Hne]; [exact Hch|].
    destruct (child n dir) as [c|] eqn:Ec; [|exact I]. destruct (pos_child n dir c Hpos Ec) as [Pc _]. cbn [avoids].
    destruct (prefixb (bits_of (tlabel c)) (bits_of x)) eqn:E; [|reflexivity]. exfalso.
    exact (children_disjoint _ dir d _ _ _ Hne (pord_prefix _ _ _ Pc) (pord_prefix _ _ _ Hp) E (prefixb_refl _)).
  Qed.

  (* the verifier's first and third check, for one child slot: x is neither the slot's label nor below it *)
  Lemma slot_checks o : (forall c, o = Some c -> canon c) -> avoids o ->
    nl_eqb x (slot_label cfg o) = false /\
    negb (nl_eqb (slot_label cfg o) (c_empty_label cfg)) && is_prefix_of (slot_label cfg o) x = false.
  Proof using Ce Wx Cx.
    destruct o as [c|]; cbn [slot_label avoids]; intros Hc Np.
    - split; [apply nl_eqb_neq; intros E; rewrite E, prefixb_refl in Np; discriminate|].
      rewrite (is_prefix_of_spec _ _ (proj1 (canon_label c (Hc c eq_refl))) Wx), Np. apply andb_false_r.
    - split; [apply canonical_not_empty; assumption|]. rewrite nl_eqb_refl. reflexivity.
  Qed.

  Theorem nonmembership_complete t :
    canon_root t ->
    (forall y, In y (leaves t) -> length (bits_of (lf_label y)) = 256%nat) ->
    (forall y, In y (leaves t) -> lf_label y <> x) ->
    verify_nonmembership cfg (root_hash cfg true t) (get_non_membership_proof cfg t x) = true.
  Proof using Ce Wx Cx Lx.
    intros Hc H256 Habs.
    assert (Hroot : tlabel t = nl_root /\ is_leaf t = false) by (destruct t; [destruct Hc | destruct Hc as (-> & _); auto]).
    pose proof (canon_root_pos t Hc) as Hpt.
    destruct (walk_reaches walk_fuel t Hpt ltac:(rewrite (proj1 Hroot); reflexivity) ltac:(unfold walk_fuel; lia)) as (Horig & Hst & _).
    pose proof (walk_fold cfg walk_fuel t x) as HF.
    pose proof (gen_membership_verifies cfg t x (proj1 Hroot) (proj2 Hroot)) as HM.
    unfold get_non_membership_proof. unfold get_membership_proof in HM.
    destruct (lcp_walk cfg walk_fuel t x) as [n sibs]. cbn [fst] in Hst, Horig. destruct HF as (_ & SN & _).
    assert (Hpn : pos n) by (destruct Horig as [->|Cn]; [exact Hpt | exact (canon_pos n Cn)]).
    (* a leaf of t has 256 bits and is not labelled x: the walk ends at a node *)
    assert (Hnl : is_leaf n = false).
    { destruct n as [ln vn en|]; [exfalso|reflexivity].
      pose proof (Sub_leaves_in _ _ SN (LF ln vn en) (or_introl eq_refl)) as Hin. cbn [tlabel] in Hst. destruct Hst as [E|(d & Hp & _)].
      - exact (Habs _ Hin E).
      - apply pord_length in Hp. pose proof (H256 _ Hin) as L. cbn [tlabel] in Hp. cbn [lf_label] in L. lia. }
    (* ... that does not carry the label x: the root's label is shorter, a subtree with 256 bits is a leaf *)
    destruct Hst as [E|Hst].
    { exfalso. destruct Horig as [->|Cn]; [rewrite <- E, (proj1 Hroot) in Lx; discriminate|].
      rewrite (wf_sub_full_leaf n (proj1 Cn)) in Hnl by (rewrite E; exact Lx). discriminate. }
    pose proof (fun dir => stop_avoids n dir Hpn Hst) as Hav. destruct Hst as (d & Hp & _).
    destruct n as [|ln le mde a b]; [discriminate|]. pose proof (proj1 Hpn) as Wl. cbn [tlabel child] in *.
    assert (Hcanon : forall (dir : bool) c, (if dir then b else a) = Some c -> canon c) by (intros dir c H; apply (pos_child _ dir c Hpn H)).
    (* a missing child only at the root *)
    assert (Hmiss : (a = None \/ b = None) -> ln = nl_root).
    { intros Hm. destruct Horig as [E|Hcan]; [rewrite <- E in Hroot; apply Hroot|].
      destruct (canon_node_inv _ _ _ _ _ Hcan) as (a' & b' & -> & -> & _). destruct Hm; discriminate. }
    unfold verify_nonmembership, verify_nonmembership_gen. cbn [np_label np_child0 np_child1 np_longest_prefix np_mp mp_label mp_hash_val child].
    rewrite !child_elem_slot.
    (* the label is neither a child's label nor below a child, and it is below the reached node *)
    destruct (slot_checks a (Hcanon false) (Hav false)) as [S1a S3a]. destruct (slot_checks b (Hcanon true) (Hav true)) as [S1b S3b].
    rewrite S1a, S1b. cbn [orb].
    rewrite (is_prefix_of_spec _ _ Wl Wx), (prefixb_app_l _ _ _ (pord_prefix _ _ _ Hp)). cbn [negb].
    rewrite S3a, S3b. cbn [andb orb].
    (* the common prefix and the hash of the reached node, recomputed from its children *)
    rewrite (slots_lcp ln le mde a b Hpn Hmiss), nl_eqb_refl. cbn [negb orb fst snd].
    rewrite (slots_hash ln le mde a b (Hcanon false) (Hcanon true)), bytes_eqb_refl. cbn [negb orb].
    exact HM.
  Qed.
End NonMem.
