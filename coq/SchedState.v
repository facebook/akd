(* C12, second half: what the concurrent publishes do to the directory.  The protocol model of
   Sched.v is extended with the directory's state: a publish reads the state together with the epoch
   (after taking the mutex), computes its commit from what it read, and commits; [apply d i] is the
   state after task i's batch has been applied to state d - any function.  Theorems: the extension
   does not change the protocol (its projection IS Sched.run); under every schedule the state is
   the result of applying the committed batches one after another in epoch order, and the state each
   commit produced (whose epoch and root hash the call returns) is the state of the serial
   application up to and including that batch; without the mutex an update is lost. *)
From Coq Require Import List Bool Arith NArith Lia.
From Akd Require Import ListFacts Sched.
Import ListNotations.
Open Scope N_scope.

Section State.
  Variable St : Type.
  Variable apply : St -> nat -> St.

  (* protocol state; current directory state; what each task read; (ghost) the state each commit
     produced, in commit order *)
  Record xstate := X { x_w : world; x_pcs : nat -> pc; x_d : St; x_snap : nat -> St; x_hist : list St }.

  Definition supd (snap : nat -> St) (i : nat) (d : St) : nat -> St := fun j => if Nat.eqb j i then d else snap j.

  Definition step_st (locking : bool) (x : xstate) (i : nat) : xstate :=
    let s' := step locking (x_w x, x_pcs x) i in
    match x_pcs x i with
    | Locked => X (fst s') (snd s') (x_d x) (supd (x_snap x) i (x_d x)) (x_hist x)
    | Read _ => let d' := apply (x_snap x i) i in X (fst s') (snd s') d' (x_snap x) (x_hist x ++ [d'])
    | _ => X (fst s') (snd s') (x_d x) (x_snap x) (x_hist x)
    end.

  Definition xinit (e0 : N) (d0 : St) : xstate := X (W e0 [] None []) (fun _ => Idle) d0 (fun _ => d0) [].
  Definition run_st (locking : bool) (e0 : N) (d0 : St) (sched : list nat) : xstate :=
    fold_left (step_st locking) sched (xinit e0 d0).

  Definition proto (x : xstate) : world * (nat -> pc) := (x_w x, x_pcs x).

  Lemma step_st_proto locking x i : proto (step_st locking x i) = step locking (proto x) i.
  Proof.
    unfold step_st, proto. destruct (x_pcs x i); cbn [x_w x_pcs];
      destruct (step locking (x_w x, x_pcs x) i); reflexivity.
  Qed.

  Theorem run_st_projects locking e0 d0 sched : proto (run_st locking e0 d0 sched) = run locking e0 sched.
  Proof. exact (fold_left_proj proto (step_st locking) (step locking) (step_st_proto locking) sched _). Qed.

  (* the committed batches, in commit (= epoch) order *)
  Definition committed_tasks (w : world) : list nat := map snd (w_log w).

  Fixpoint serial_states (d : St) (tasks : list nat) : list St :=
    match tasks with
    | [] => []
    | i :: rest => apply d i :: serial_states (apply d i) rest
    end.

  Lemma serial_states_app d l1 l2 : serial_states d (l1 ++ l2) = serial_states d l1 ++ serial_states (fold_left apply l1 d) l2.
  Proof. revert d. induction l1 as [|i l1 IH]; intros d; [reflexivity|]. cbn [app serial_states fold_left]. rewrite IH. reflexivity. Qed.

  Record SInv (e0 : N) (d0 : St) (x : xstate) : Prop := {
    s_inv : Inv e0 (x_w x) (x_pcs x);
    s_snap : forall j e, x_pcs x j = Read e -> x_snap x j = x_d x;
    s_state : x_d x = fold_left apply (committed_tasks (x_w x)) d0;
    s_hist : x_hist x = serial_states d0 (committed_tasks (x_w x)) }.

  Lemma SInv_init e0 d0 : SInv e0 d0 (xinit e0 d0).
  Proof. constructor; cbn; [apply Inv_init | discriminate | reflexivity | reflexivity]. Qed.

  Lemma SInv_step e0 d0 x i : SInv e0 d0 x -> SInv e0 d0 (step_st true x i).
  Proof.
    destruct x as [w pcs d snap hist]. intros [I Sn Sd Sh]. cbn [x_w x_pcs x_d x_snap x_hist] in *.
    pose proof (Inv_step e0 w pcs i I) as I'. pose proof (step_log w pcs i) as HL.
    pose proof (fun j e => step_read_inv w pcs i j e) as HR.
    unfold step_st. unfold committed_tasks in Sd, Sh. cbn [x_w x_pcs x_d x_snap x_hist].
    destruct (pcs i) as [| | |e|r] eqn:Ei; constructor; unfold committed_tasks; cbn [x_w x_pcs x_d x_snap x_hist];
      try exact I'; rewrite ?HL; try assumption.
    1, 2, 7: intros j e' Hj; destruct (HR j e' Hj) as [[Hj' _]|[_ Hl]]; [exact (Sn j e' Hj') | discriminate].
    - (* Locked: reads epoch and state *)
      intros j e' Hj. unfold supd. destruct (HR j e' Hj) as [[Hj' N]|[-> _]]; [|now rewrite Nat.eqb_refl].
      apply Nat.eqb_neq in N. rewrite N. exact (Sn j e' Hj').
    - (* Read e: nobody else holds a snapshot, and it commits what it computed from its own, the current state *)
      intros j e' Hj. destruct (HR j e' Hj) as [[Hj' N]|[_ Hl]]; [|discriminate]. exfalso. apply N.
      assert (Hi : w_holder w = Some i) by (apply (i_cs _ _ _ I i); right; eauto).
      assert (Hh : w_holder w = Some j) by (apply (i_cs _ _ _ I j); right; eauto). congruence.
    - rewrite (Sn i e Ei), Sd, map_app, fold_left_app. reflexivity.
    - rewrite (Sn i e Ei), Sh, Sd, map_app, serial_states_app. reflexivity.
  Qed.

  Theorem publishes_apply_in_epoch_order e0 d0 sched :
    let x := run_st true e0 d0 sched in
    x_d x = fold_left apply (committed_tasks (x_w x)) d0 /\
    x_hist x = serial_states d0 (committed_tasks (x_w x)) /\
    log_ok e0 (w_log (x_w x)) (w_epoch (x_w x)).
  Proof.
    assert (H : SInv e0 d0 (run_st true e0 d0 sched))
      by (apply (fold_left_inv (SInv e0 d0)); [intros x i; apply SInv_step | apply SInv_init]).
    destruct H as [I _ Sd Sh]. split; [exact Sd|]. split; [exact Sh | apply (i_log _ _ _ I)].
  Qed.
End State.

(* without the mutex (the code before the fix) an update is lost: both tasks compute from the state
   they read at the start, the second commit overwrites the first *)
Theorem without_mutex_update_lost :
  let x := run_st (list nat) (fun d i => d ++ [i]) false 2 [] [0; 1; 0; 1; 0; 1]%nat in
  committed_tasks (x_w _ x) = [0; 1]%nat /\ x_d _ x = [1]%nat.
Proof. vm_compute. split; reflexivity. Qed.
