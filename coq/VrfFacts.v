(* C18, the VRF layer.  The ECVRF scheme over an abstract group is complete, and a proof binds key
   and input up to a collision of the challenge hash.  The byte string the directory feeds the VRF
   determines (label, freshness, version); equal commitment keys come from equal secret keys, equal
   commitments to one value from equal commitment keys - each up to a collision of H.  verify_label
   accepts one node label per proof. *)
From Coq Require Import List Bool Arith NArith ZArith Lia.
From Akd Require GenConsts.
From Akd Require Import Bits NodeLabel NodeLabelFacts Hashing Tree TreeFacts HashingFacts Directory Verify Vrf.
Import ListNotations.

Section ECVRFFacts.
  Variable G : Type.
  Variable gadd : G -> G -> G.
  Variable gneg : G -> G.
  Variable gzero : G.
  Variable smul : Z -> G -> G.
  Variable q : Z.
  Variable B : G.
  Variable encode_to_curve : bytes -> bytes -> G.
  Variable challenge : bytes -> G -> G -> G -> G -> Z.
  Variable nonce : Z -> G -> Z.
  Variable output : G -> bytes.
  Variable pk_bytes : G -> bytes.
  Variable point_bytes : G -> bytes.
  Variable point_of_bytes : bytes -> option G.

  Hypothesis gadd_assoc : forall a b c, gadd (gadd a b) c = gadd a (gadd b c).
  Hypothesis gadd_zero_r : forall a, gadd a gzero = a.
  Hypothesis gadd_neg_r : forall a, gadd a (gneg a) = gzero.
  Hypothesis smul_add : forall a b P, smul (a + b) P = gadd (smul a P) (smul b P).
  Hypothesis smul_mul : forall a b P, smul (a * b) P = smul a (smul b P).
  Hypothesis smul_mod : forall a P, smul (a mod q) P = smul a P.

  Notation prove := (prove G smul q B encode_to_curve challenge nonce pk_bytes).
  Notation verify := (verify G gadd gneg smul B encode_to_curve challenge output pk_bytes).
  Notation evaluate := (evaluate G smul B encode_to_curve output pk_bytes).
  Notation public_key := (public_key G smul B).

  Lemma schnorr_point k c x P : gadd (smul ((k + c * x) mod q) P) (gneg (smul c (smul x P))) = smul k P.
  Proof using gadd_assoc gadd_zero_r gadd_neg_r smul_add smul_mul smul_mod.
    rewrite smul_mod, smul_add, smul_mul, gadd_assoc, gadd_neg_r. apply gadd_zero_r.
  Qed.

  (* the server's proof verifies under its public key and yields exactly the output the server
     derives the node label from (evaluate), for every key, input and nonce choice *)
  Theorem ecvrf_complete x alpha : verify (public_key x) (prove x alpha) alpha = Some (evaluate x alpha).
  Proof using gadd_assoc gadd_zero_r gadd_neg_r smul_add smul_mul smul_mod.
    unfold Vrf.verify, Vrf.prove, Vrf.evaluate. cbn [vp_gamma vp_c vp_s].
    unfold Vrf.public_key. rewrite !schnorr_point. rewrite Z.eqb_refl. reflexivity.
  Qed.

  (* determinism: prove and evaluate are functions of (key, input) *)
  Theorem ecvrf_deterministic x alpha : vp_gamma G (prove x alpha) = smul x (encode_to_curve (pk_bytes (public_key x)) alpha).
  Proof. reflexivity. Qed.

  (* a proof that verifies for two (key, input) pairs mapping to different curve inputs exhibits a
     collision of the challenge hash (SHA-512 truncated to 128 bits in the code) *)
  Definition ChallengeCollision : Prop :=
    exists a h g u v a' h' g' u' v', (a, h, g, u, v) <> (a', h', g', u', v') /\
      challenge a h g u v = challenge a' h' g' u' v'.

  Theorem verify_binds_key_and_input Y Y' p alpha alpha' o o' :
    verify Y p alpha = Some o -> verify Y' p alpha' = Some o' ->
    (pk_bytes Y, encode_to_curve (pk_bytes Y) alpha) <> (pk_bytes Y', encode_to_curve (pk_bytes Y') alpha') ->
    ChallengeCollision.
  Proof.
    unfold Vrf.verify. cbv zeta.
    destruct (_ =? _)%Z eqn:E1; [intros _|discriminate]. apply Z.eqb_eq in E1.
    destruct (_ =? _)%Z eqn:E2; [intros _ Hne|discriminate]. apply Z.eqb_eq in E2.
    do 10 eexists. split; [|rewrite <- E1; exact E2].
    intros Heq. apply Hne. injection Heq as -> ->. reflexivity.
  Qed.

  (* the output is a function of the proof's gamma alone: altering c or s never changes the label *)
  Theorem verify_output_from_gamma Y p alpha o : verify Y p alpha = Some o -> o = output (vp_gamma G p).
  Proof. unfold Vrf.verify. destruct (_ =? _)%Z; [intros [= <-]; reflexivity | discriminate]. Qed.

  Lemma le_bytes_length : forall k z, length (le_bytes k z) = k.
  Proof. induction k as [|k IH]; intros z; cbn [le_bytes length]; [reflexivity | rewrite IH; reflexivity]. Qed.

  Lemma of_le_le_bytes : forall k z, (of_le (le_bytes k z) = z mod 256 ^ Z.of_nat k)%Z.
  Proof.
    induction k as [|k IH]; intros z.
    - cbn [le_bytes of_le]. change (256 ^ Z.of_nat 0)%Z with 1%Z. rewrite Z.mod_1_r. reflexivity.
    - cbn [le_bytes of_le]. rewrite IH. rewrite Z2N.id by (apply Z.mod_pos_bound; reflexivity).
      rewrite Nat2Z.inj_succ, Z.pow_succ_r by apply Nat2Z.is_nonneg.
      rewrite Z.rem_mul_r; [reflexivity | discriminate | apply Z.pow_pos_nonneg; [reflexivity | apply Nat2Z.is_nonneg]].
  Qed.

  Hypothesis point_roundtrip : forall g, point_of_bytes (point_bytes g) = Some g.
  Hypothesis point_length : forall g, length (point_bytes g) = 32%nat.
  Hypothesis q_large : (2 ^ 128 <= q)%Z.
  Hypothesis q_small : (q <= 2 ^ 256)%Z.

  Notation proof_bytes := (proof_bytes G point_bytes).
  Notation proof_of_bytes := (proof_of_bytes G q point_of_bytes).

  Theorem proof_bytes_roundtrip g c s :
    (0 <= c < 2 ^ 128)%Z -> (0 <= s < q)%Z ->
    proof_of_bytes (proof_bytes (VP G g c s)) = Some (VP G g c s).
  Proof using point_roundtrip point_length q_large q_small.
    intros Hc Hs. unfold Vrf.proof_of_bytes, Vrf.proof_bytes. cbn [vp_gamma vp_c vp_s].
    rewrite !app_length, point_length, !le_bytes_length. cbn [Nat.add Nat.eqb negb].
    rewrite (firstn_app_exact 32) by apply point_length. rewrite point_roundtrip.
    rewrite (skipn_app_exact 32) by apply point_length.
    rewrite (firstn_app_exact 16) by apply le_bytes_length.
    rewrite app_assoc. rewrite (skipn_app_exact 48) by (rewrite app_length, point_length, le_bytes_length; reflexivity).
    rewrite !of_le_le_bytes.
    change (256 ^ Z.of_nat 16)%Z with (2 ^ 128)%Z. change (256 ^ Z.of_nat 32)%Z with (2 ^ 256)%Z.
    assert (E1 : (c mod 2 ^ 128 = c)%Z) by (apply Z.mod_small; clear - Hc; lia).
    assert (E2 : (s mod 2 ^ 256 = s)%Z) by (apply Z.mod_small; clear - Hs q_small; lia).
    assert (E3 : (c mod q = c)%Z) by (apply Z.mod_small; clear - Hc q_large; lia).
    assert (E4 : (s mod q = s)%Z) by (apply Z.mod_small; clear - Hs; lia).
    rewrite E1, E2, E3, E4. reflexivity.
  Qed.
End ECVRFFacts.

Open Scope N_scope.
From Akd Require Import Binding HashingBinding.

Lemma label_input_bytes_inj l (f : bool) v l' (f' : bool) v' :
  Len64 l -> Len64 l' -> v < 2 ^ 64 -> v' < 2 ^ 64 ->
  i2osp_array l ++ [if f then 1 else 0] ++ be64 v = i2osp_array l' ++ [if f' then 1 else 0] ++ be64 v' ->
  l = l' /\ f = f' /\ v = v'.
Proof.
  intros Ll Ll' Hv Hv' E. apply i2osp_array_prefix_inj in E; [|exact Ll|exact Ll']. destruct E as [-> E].
  apply app_eq_len in E; [|reflexivity]. destruct E as [Ef Ev]. apply be_bytes_inj in Ev; [|exact Hv|exact Hv'].
  repeat split; try assumption. destruct f, f'; try reflexivity; discriminate.
Qed.

Section InputBinding.
  Variable H : bytes -> bytes.
  Hypothesis H_len : forall x, length (H x) = 32%nat.
  Variable domain : bytes.

  (* Both configurations hash behind a fixed prefix d: none for whatsapp, the domain for
     experimental ([] ++ x computes to x).  What follows from equal inputs follows from equal
     hashes, up to a collision. *)
  Lemma pref_inj d x y (P : Prop) : (x = y -> P) -> H (d ++ x) = H (d ++ y) -> P \/ Collision H.
  Proof. intros K E. apply H_inj in E. destruct E as [E|]; [left; apply K; apply app_inv_head in E; exact E | now right]. Qed.

  Theorem w_label_input_binding l f v l' f' v' :
    Len64 l -> Len64 l' -> v < 2 ^ 64 -> v' < 2 ^ 64 ->
    label_input_hash (whatsapp H) l f v = label_input_hash (whatsapp H) l' f' v' ->
    (l = l' /\ f = f' /\ v = v') \/ Collision H.
  Proof. intros Ll Ll' Hv Hv'. exact (pref_inj [] _ _ _ (label_input_bytes_inj l f v l' f' v' Ll Ll' Hv Hv')). Qed.

  Theorem e_label_input_binding l f v l' f' v' :
    Len64 l -> Len64 l' -> v < 2 ^ 64 -> v' < 2 ^ 64 ->
    label_input_hash (experimental H domain) l f v = label_input_hash (experimental H domain) l' f' v' ->
    (l = l' /\ f = f' /\ v = v') \/ Collision H.
  Proof. intros Ll Ll' Hv Hv'. exact (pref_inj domain _ _ _ (label_input_bytes_inj l f v l' f' v' Ll Ll' Hv Hv')). Qed.

  (* commitment keys and commitments under different secret keys (derive_commitment_key =
     TC::hash(secret key bytes); nonce and commitment as in Hashing.fresh_value) *)
  Theorem w_commitment_key_binding sk sk' :
    c_hash (whatsapp H) sk = c_hash (whatsapp H) sk' -> sk = sk' \/ Collision H.
  Proof. exact (pref_inj [] sk sk' _ (fun E => E)). Qed.
  Theorem e_commitment_key_binding sk sk' :
    c_hash (experimental H domain) sk = c_hash (experimental H domain) sk' -> sk = sk' \/ Collision H.
  Proof. exact (pref_inj domain sk sk' _ (fun E => E)). Qed.

  Lemma Len64_32 b : length b = 32%nat -> Len64 b.
  Proof. unfold Len64. intros ->. reflexivity. Qed.

  (* the nonce is the hash of the commitment key followed by data s that does not depend on it;
     the commitment hashes the value and the nonce *)
  Lemma fresh_value_separation d ck ck' s val : D32 ck -> D32 ck' -> Len64 val ->
    H (d ++ i2osp_array val ++ i2osp_array (H (d ++ ck ++ s))) =
    H (d ++ i2osp_array val ++ i2osp_array (H (d ++ ck' ++ s))) -> ck = ck' \/ Collision H.
  Proof using H_len.
    intros D D' Lv E. apply commit_hash_inj in E; try assumption; try (apply Len64_32, H_len). destruct E as [[_ E]|]; [|now right].
    revert E. apply pref_inj. intros E. apply app_eq_len in E; [tauto | unfold D32 in *; congruence].
  Qed.

  Theorem w_commitment_key_separation ck ck' l v val :
    D32 ck -> D32 ck' -> Len64 val ->
    fresh_value (whatsapp H) ck l v val = fresh_value (whatsapp H) ck' l v val -> ck = ck' \/ Collision H.
  Proof using H_len. exact (fresh_value_separation [] ck ck' _ val). Qed.

  Theorem e_commitment_key_separation ck ck' l v val :
    D32 ck -> D32 ck' -> Len64 val ->
    fresh_value (experimental H domain) ck l v val = fresh_value (experimental H domain) ck' l v val -> ck = ck' \/ Collision H.
  Proof using H_len. exact (fresh_value_separation domain ck ck' _ val). Qed.
End InputBinding.

Section VerifyLabel.
  Variable cfg : config.
  Variable vrf_check : bytes -> bytes -> bytes -> option bytes.
  Variable pk : bytes.

  Theorem verify_label_sound l f v proof nl :
    verify_label cfg vrf_check pk l f v proof nl = true ->
    exists out, vrf_check pk proof (label_input_hash cfg l f v) = Some out /\ nl = NL out 256.
  Proof.
    unfold verify_label. destruct (vrf_check pk proof _) as [out|]; [|discriminate].
    intros E. apply nl_eqb_eq in E. eauto.
  Qed.

  Theorem verify_label_rejects_other_label l f v proof nl nl' :
    verify_label cfg vrf_check pk l f v proof nl = true -> nl' <> nl ->
    verify_label cfg vrf_check pk l f v proof nl' = false.
  Proof.
    unfold verify_label. destruct (vrf_check pk proof _) as [out|]; [|discriminate].
    intros E Hne. apply nl_eqb_eq in E. subst nl.
    destruct (nl_eqb (NL out 256) nl') eqn:E'; [|reflexivity]. apply nl_eqb_eq in E'. congruence.
  Qed.

  (* VRF uniqueness (a property of ECVRF assumed of the primitive): whatever proof bytes are
     presented, a given (key, input) verifies to one output only *)
  Hypothesis vrf_unique : forall alpha p p' o o',
    vrf_check pk p alpha = Some o -> vrf_check pk p' alpha = Some o' -> o = o'.

  Theorem verify_label_unique l f v proof proof' nl nl' :
    verify_label cfg vrf_check pk l f v proof nl = true ->
    verify_label cfg vrf_check pk l f v proof' nl' = true -> nl = nl'.
  Proof using vrf_unique.
    intros V V'. apply verify_label_sound in V, V'.
    destruct V as (o & E & ->). destruct V' as (o' & E' & ->).
    rewrite (vrf_unique _ _ _ _ _ E E'). reflexivity.
  Qed.
End VerifyLabel.

(* the group premises of ECVRFFacts are satisfiable: Z/2 *)
Definition z2_smul (k : Z) (p : bool) : bool := if Z.odd k then p else false.
Lemma z2_group_laws :
  (forall a b c, xorb (xorb a b) c = xorb a (xorb b c)) /\ (forall a, xorb a false = a) /\
  (forall a, xorb a (id a) = false) /\
  (forall a b P, z2_smul (a + b) P = xorb (z2_smul a P) (z2_smul b P)) /\
  (forall a b P, z2_smul (a * b) P = z2_smul a (z2_smul b P)) /\ (forall a P, z2_smul (a mod 2) P = z2_smul a P).
Proof.
  repeat split.
  - intros a b c. apply xorb_assoc.
  - intros a. apply xorb_false_r.
  - intros a. apply xorb_nilpotent.
  - intros a b P. unfold z2_smul. rewrite Z.odd_add. destruct (Z.odd a), (Z.odd b), P; reflexivity.
  - intros a b P. unfold z2_smul. rewrite Z.odd_mul. destruct (Z.odd a), (Z.odd b), P; reflexivity.
  - intros a P. unfold z2_smul. replace (Z.odd (a mod 2)) with (Z.odd a); [reflexivity|].
    rewrite Zmod_odd. destruct (Z.odd a); reflexivity.
Qed.
