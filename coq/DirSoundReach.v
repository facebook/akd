(* C06 / C07 / C08 at the directory level: the "honestly maintained tree" which the soundness theorems of
   DirSound.v take as a premise is what the directory model builds.  In every state reachable by
   publish requests every leaf of the tree is the fresh leaf of a stored state or the stale leaf that
   was inserted together with a stored state; from this (and the history invariant of HistEnd.v) all
   premises of the soundness theorems about the tree are discharged, so that they speak about the
   directory itself: whatever lookup or history proof an adversary presents against the epoch hash
   of a reachable state, if it verifies it tells the truth about the label. *)
From Coq Require Import List Bool NArith Lia.
From Akd Require Import Directory Verify.
From Akd Require Import NodeLabel NodeLabelFacts ElemSet Hashing Tree TreeFacts Binding SpecFacts InsertRefine DirFacts DirRefine HistComplete LookupComplete HistEnd DirSound.
Import ListNotations.
Open Scope N_scope.

Definition entry_of_state (s : vrec) : verify_result := VRes (vr_epoch s) (vr_version s) (vr_value s).

Section Reachable.
  Variable cfg : config.
  Variable Bad : Prop.
  Hypothesis B : Binding cfg Bad.
  Variable ck : bytes.
  Variable vrf_label : bytes -> bool -> N -> option nlabel.
  Hypothesis vrf_good : forall l f v nl, vrf_label l f v = Some nl -> WF nl /\ canonical nl = true /\ llen nl = 256.
  Hypothesis vrf_inj : forall l f v l' f' v' nl, vrf_label l f v = Some nl -> vrf_label l' f' v' = Some nl -> l = l' /\ f = f' /\ v = v'.
  (* the verifier's side of the VRF for the label in question: a total function F which the server's
     table agrees with, whose values no other table entry takes, and which a verifying proof outputs *)
  Variable vrf_check : bytes -> bytes -> bytes -> option bytes.
  Variable pk l : bytes.
  Variable F : bool -> N -> nlabel.
  Hypothesis F_full : forall f v, llen (F f v) = 256 /\ WF (F f v) /\ LW (F f v).
  Hypothesis F_ext : forall f v nl, vrf_label l f v = Some nl -> nl = F f v.
  Hypothesis F_inj : forall f v l' f' v', v < 2 ^ 64 -> vrf_label l' f' v' = Some (F f v) -> l' = l /\ f' = f /\ v' = v.
  Hypothesis vrf_unique : forall proof f v out, v < 2 ^ 64 -> vrf_check pk proof (label_input_hash cfg l f v) = Some out -> NL out 256 = F f v.
  Hypothesis nonce_len : forall key lb ver value, Len64 (c_commitment_nonce cfg key lb ver value).
  Hypothesis stale_D32 : D32 (c_stale_value cfg).

  Variable reqs : list (list (bytes * bytes)).
  Let st := run_publishes cfg ck vrf_label dir_new reqs.
  Hypothesis values_len : forall s, In s (d_states st) -> Len64 (vr_value s).
  Hypothesis epoch_u64 : d_epoch st < 2 ^ 64.

  Let Ce := b_empty_label_not_canonical _ _ B.

  Collection Invs := B vrf_good vrf_inj vrf_check pk Ce st.
  Collection Full := Invs F_full F_ext F_inj vrf_unique nonce_len stale_D32 values_len epoch_u64.

  Lemma reach_inv3 : Inv3 cfg ck vrf_label st.
  Proof using Invs.
    apply (inv3_reachable cfg ck vrf_label (fun _ _ _ => None) vrf_check pk Ce vrf_good vrf_inj). intros; discriminate.
  Qed.

  Definition leaf_form (d : dstate) (y : leaf) : Prop :=
    exists s nl, In s (d_states d) /\
      ((vrf_label (vr_user s) true (vr_version s) = Some nl /\ y = LF nl (fresh_value cfg ck nl (vr_version s) (vr_value s)) (vr_epoch s)) \/
       (1 < vr_version s /\ vrf_label (vr_user s) false (vr_version s - 1) = Some nl /\ y = LF nl (c_stale_value cfg) (vr_epoch s))).

  Definition Forms (d : dstate) : Prop := forall y, In y (leaves (d_tree d)) -> leaf_form d y.

  Lemma forms_step d d' news ess : Forms d -> step cfg ck vrf_label d d' news ess -> Forms d'.
  Proof using Type.
    intros Fd S y Hy. destruct (step_leaves_inv cfg ck vrf_label _ _ _ _ y S Hy) as [Hy'|(n & es & x & Hn & (fl & Ef & Hes) & Hxe & ->)].
    - destruct (Fd y Hy') as (s & nl & Hs & H). exists s, nl. split; [apply (step_states cfg ck vrf_label _ _ _ _ s S); left; exact Hs | exact H].
    - assert (Hin : In n (d_states d')) by (apply (step_states cfg ck vrf_label _ _ _ _ n S); right; exact Hn).
      destruct Hes as [[_ ->]|(Hv & sl & Es & ->)].
      + destruct Hxe as [<-|[]]. exists n, fl. split; [exact Hin|]. left. split; [exact Ef | reflexivity].
      + destruct Hxe as [<-|[<-|[]]]; [exists n, sl | exists n, fl]; (split; [exact Hin|]); [right | left]; auto.
  Qed.

  Lemma reach_forms : Forms st.
  Proof using Invs.
    apply (run_publishes_ind cfg ck vrf_label Ce vrf_good vrf_inj Forms);
      [intros d d' news ess _; apply forms_step | apply dir_new_inv | intros y []].
  Qed.

  Lemma reach_inv2 : DirInv2 cfg ck vrf_label st.
  Proof using Invs. exact (i3_inv2 _ _ _ _ reach_inv3). Qed.

  Lemma reach_inv : DirInv vrf_label st.
  Proof using Invs. exact (d2_inv _ _ _ _ reach_inv2). Qed.

  (* the label's account h, newest first, and its true history as the soundness theorems want it:
     version v is the entry at distance n - v from the head *)
  Local Notation h := (user_history (d_states st) l (d_epoch st)).
  Local Notation n := (N.of_nat (length h)).
  Definition dflt : vrec := VR l 0 0 [] nl_root.
  Definition state_of (v : N) : vrec := nth (N.to_nat (n - v)) h dflt.
  Definition val_of (v : N) : bytes := vr_value (state_of v).
  Definition ep_of (v : N) : N := vr_epoch (state_of v).

  Lemma in_h s : In s h <-> In s (d_states st) /\ vr_user s = l.
  Proof using Invs.
    rewrite in_user_history. split; [intros (H1 & H2 & _); split; assumption|].
    intros [H1 H2]. split; [exact H1 | split; [exact H2 | exact (di_epochs vrf_label st reach_inv s H1)]].
  Qed.

  Lemma nth_h_version i : (i < length h)%nat -> vr_version (nth i h dflt) = n - N.of_nat i.
  Proof using Invs.
    intros Hi. rewrite <- (map_nth vr_version h dflt i). cbn [dflt vr_version]. rewrite (proj1 (i3_hist cfg ck vrf_label st reach_inv3 l)). apply nth_countdown. exact Hi.
  Qed.

  Lemma state_of_spec s : In s (d_states st) -> vr_user s = l -> 1 <= vr_version s /\ vr_version s <= n /\ state_of (vr_version s) = s.
  Proof using Invs.
    intros Hs Hu. assert (Hin : In s h) by (apply in_h; split; assumption).
    destruct (In_nth h s dflt Hin) as (i & Hi & Hn). pose proof (nth_h_version i Hi) as Hv. rewrite Hn in Hv.
    unfold state_of. rewrite Hv. clear - Hi Hn.
    replace (N.to_nat (n - (n - N.of_nat i))) with i by lia. split; [lia|]. split; [lia | exact Hn].
  Qed.

  Lemma state_of_range v : 1 <= v -> v <= n -> In (state_of v) (d_states st) /\ vr_user (state_of v) = l /\ vr_version (state_of v) = v.
  Proof using Invs.
    intros H1 H2. unfold state_of.
    assert (Hi : (N.to_nat (n - v) < length h)%nat) by (clear - H1 H2; lia).
    destruct (proj1 (in_h _) (nth_In h dflt Hi)) as [A C]. split; [exact A|]. split; [exact C|].
    rewrite (nth_h_version _ Hi). clear - H1 H2. lia.
  Qed.

  Lemma vals_len v : Len64 (val_of v).
  Proof using Invs values_len.
    unfold val_of, state_of. destruct (nth_in_or_default (N.to_nat (n - v)) h dflt) as [Hin| ->].
    - apply values_len. apply in_h. exact Hin.
    - cbn. unfold Len64. cbn. clear. lia.
  Qed.

  Lemma eps_u64 v : ep_of v < 2 ^ 64.
  Proof using Invs epoch_u64.
    unfold ep_of, state_of. destruct (nth_in_or_default (N.to_nat (n - v)) h dflt) as [Hin| ->].
    - apply in_h in Hin. pose proof (di_epochs vrf_label st reach_inv _ (proj1 Hin)) as He. clear - He epoch_u64. lia.
    - cbn. clear. lia.
  Qed.

  Lemma tree_fresh y v : v < 2 ^ 64 -> In y (leaves (d_tree st)) -> lf_label y = F true v ->
    1 <= v /\ v <= n /\ lf_value y = fresh_value cfg ck (F true v) v (val_of v) /\ lf_epoch y = ep_of v.
  Proof using Invs F_inj.
    intros Hv64 Hy Hl. destruct (reach_forms y Hy) as (s & nl & Hs & [(El & ->)|(_ & H2 & ->)]); cbn [lf_label lf_value lf_epoch] in *; subst nl.
    - destruct (F_inj _ _ _ _ _ Hv64 El) as (Hu & _ & Hv). destruct (state_of_spec s Hs Hu) as (A & C & D).
      rewrite <- Hv. split; [exact A|]. split; [exact C|]. unfold val_of, ep_of. rewrite D. rewrite Hv. split; reflexivity.
    - destruct (F_inj _ _ _ _ _ Hv64 H2) as (_ & Hf & _). discriminate.
  Qed.

  Lemma tree_stale v : 1 <= v -> v < n -> In (F false v) (map lf_label (leaves (d_tree st))).
  Proof using Invs F_ext.
    intros H1 H2. destruct (state_of_range (v + 1) ltac:(clear - H1; lia) ltac:(clear - H2; lia)) as (A & C & D).
    destruct (i3_stale cfg ck vrf_label st reach_inv3 (state_of (v + 1)) A ltac:(rewrite D; clear - H1; lia)) as (nl & Hl & Hin).
    rewrite C, D, N.add_sub in Hl. rewrite (F_ext _ _ _ Hl) in Hin. exact (in_map lf_label _ _ Hin).
  Qed.

  Lemma tree_has_fresh v : 1 <= v -> v <= n -> In (F true v) (map lf_label (leaves (d_tree st))).
  Proof using Invs F_ext.
    intros H1 H2. destruct (state_of_range v H1 H2) as (A & C & D).
    destruct (d2_leaf cfg ck vrf_label st reach_inv2 (state_of v) A) as (y & Hy & Hin). unfold fresh_leaf in Hy.
    rewrite C, D in Hy. destruct (vrf_label l true v) as [nl|] eqn:El; [|discriminate]. injection Hy as <-.
    rewrite (F_ext _ _ _ El) in Hin. exact (in_map lf_label _ _ Hin).
  Qed.

  Lemma tree_stale_epoch y v : v < 2 ^ 64 -> In y (leaves (d_tree st)) -> lf_label y = F false v ->
    lf_value y = c_stale_value cfg /\ lf_epoch y = ep_of (v + 1).
  Proof using Invs F_inj.
    intros Hv64 Hy Hl. destruct (reach_forms y Hy) as (s & nl & Hs & [(El & ->)|(H1 & H2 & ->)]); cbn [lf_label lf_value lf_epoch] in *; subst nl.
    - destruct (F_inj _ _ _ _ _ Hv64 El) as (_ & Hf & _). discriminate.
    - destruct (F_inj _ _ _ _ _ Hv64 H2) as (Hu & _ & Hv). destruct (state_of_spec s Hs Hu) as (_ & _ & D). split; [reflexivity|].
      unfold ep_of. replace (v + 1) with (vr_version s) by (clear - H1 Hv; lia). rewrite D. reflexivity.
  Qed.

  Lemma tree_epochs_u64 y : In y (leaves (d_tree st)) -> lf_epoch y < 2 ^ 64.
  Proof using Invs epoch_u64.
    intros Hy. destruct (di_tree vrf_label st reach_inv) as [_ Lo]. pose proof (Lo y Hy) as He. clear - He epoch_u64. lia.
  Qed.

  Lemma t_wf : wf_root (d_tree st) = true.
  Proof using Invs. apply canon_root_wf. apply (di_tree vrf_label st reach_inv). Qed.

  Lemma t_ok : tree_ok (d_tree st).
  Proof using Invs stale_D32.
    apply wf_root_tree_ok; [exact t_wf|]. intros y Hy.
    destruct (reach_forms y Hy) as (s & nl & _ & [(_ & ->)|(_ & _ & ->)]); [apply (b_commit_D32 _ _ B) | exact stale_D32].
  Qed.

  Lemma n_le_epoch : n <= d_epoch st.
  Proof using Invs. rewrite <- (ver_length cfg ck vrf_label st l reach_inv3). exact (ver_le_epoch vrf_label st l reach_inv). Qed.

  (* C06 at the directory level: whatever lookup proof is presented against the state's root hash,
     if it verifies it names the label's latest state - and nothing verifies for an unpublished label *)
  Theorem lookup_sound_reachable E p r : lp_ok p ->
    lookup_verify cfg vrf_check pk (snd (epoch_hash cfg st)) E l p = Some r ->
    (exists s, latest_state (d_states st) l (d_epoch st) = Some s /\ r = entry_of_state s) \/ Bad.
  Proof using Full.
    intros Hp H. destruct (lookup_verify_inv _ _ _ _ _ _ _ _ H) as (Er & _ & Hv0 & _).
    destruct (lookup_sound cfg Bad B vrf_check pk ck l (d_tree st) t_ok t_wf F F_full vrf_unique n val_of ep_of vals_len eps_u64
                tree_fresh tree_stale (fun v => nonce_len _ _ _ _) E p r Hp H) as [(R1 & R2 & R3)|]; [|now right].
    left. assert (Hn1 : 1 <= n) by (rewrite <- R1, Er; cbn [r_version]; clear - Hv0; lia).
    destruct (state_of_range n Hn1 (N.le_refl _)) as (A & C & D).
    exists (state_of n). split.
    - unfold state_of. rewrite N.sub_diag. destruct h as [|d0 r0] eqn:Eh; [cbn in Hn1; clear - Hn1; lia|].
      exact (user_history_head vrf_label st l d0 r0 reach_inv Eh).
    - destruct r as [re rv rval]. cbn [r_version r_value r_epoch] in *. unfold entry_of_state. rewrite D.
      unfold val_of, ep_of in *. subst. reflexivity.
  Qed.

  Lemma map_state_of : map state_of (countdown n (length h)) = h.
  Proof using Type.
    apply (nth_ext _ _ dflt dflt); [rewrite map_length, countdown_length; reflexivity|].
    intros i Hi. rewrite map_length, countdown_length in Hi.
    rewrite (nth_indep _ dflt (state_of 0)) by (rewrite map_length, countdown_length; exact Hi).
    rewrite (map_nth state_of). rewrite (nth_countdown _ _ _ Hi). unfold state_of.
    replace (N.to_nat (n - (n - N.of_nat i))) with i by (clear - Hi; lia). reflexivity.
  Qed.

  Lemma true_entries k : (k <= length h)%nat -> map (true_entry val_of ep_of) (countdown n k) = map entry_of_state (firstn k h).
  Proof using Invs.
    intros Hk. rewrite <- map_state_of at 2. rewrite <- (countdown_firstn k (length h) n Hk), <- !firstn_map. f_equal.
    rewrite map_map. apply map_ext_in. intros v Hv. apply in_countdown in Hv; [|apply N.le_refl].
    destruct (state_of_range v ltac:(clear - Hv; lia) (proj2 Hv)) as (_ & _ & D).
    unfold true_entry, entry_of_state, val_of, ep_of. rewrite D. reflexivity.
  Qed.

  (* C07 at the directory level, for any mode: if every update that passes is reported truthfully up to R,
     an accepted proof yields, up to R, exactly the requested entries of the label's stored account *)
  Theorem history_sound_reachable_gen R am E p params rs :
    (forall u, In u (hp_updates p) ->
       verify_single_update cfg vrf_check pk (root_hash cfg true (d_tree st)) l am u = Some (entry_of u) ->
       update_true n val_of ep_of R u \/ Bad) ->
    Forall nmp_ok (hp_future p) -> d_epoch st <= E -> E < 2 ^ 64 ->
    key_history_verify cfg vrf_check pk (snd (epoch_hash cfg st)) E l p params am = Some rs ->
    Forall2 R rs (map entry_of_state (hist_data st l params)) \/ Bad.
  Proof using Invs F_full F_ext vrf_unique stale_D32.
    intros Hs Pf HE1 HE2 H.
    destruct (history_sound_gen cfg Bad B vrf_check pk l (d_tree st) t_ok t_wf F F_full vrf_unique n val_of ep_of tree_has_fresh
                R E p params am rs Hs Pf (N.le_trans _ _ _ n_le_epoch HE1) HE2 H) as [[Fa Hl]|]; [|now right].
    left. destruct (hist_data_firstn st l params) as (j & -> & Hj & Ej).
    replace (length rs) with j in Fa by (clear - Hl Ej; destruct params; lia). rewrite (true_entries j Hj) in Fa. exact Fa.
  Qed.

  Lemma update_default u : up_ok u ->
    verify_single_update cfg vrf_check pk (root_hash cfg true (d_tree st)) l false u = Some (entry_of u) ->
    update_true n val_of ep_of eq u \/ Bad.
  Proof using Full.
    exact (single_update_sound cfg Bad B vrf_check pk ck l (d_tree st) t_ok t_wf F F_full vrf_unique n val_of ep_of vals_len eps_u64
             tree_fresh (fun v => nonce_len _ _ _ _) u).
  Qed.

  Lemma update_missing u : up_ok2 u ->
    verify_single_update cfg vrf_check pk (root_hash cfg true (d_tree st)) l true u = Some (entry_of u) ->
    update_true n val_of ep_of amrel u \/ Bad.
  Proof using Full.
    exact (single_update_sound_am cfg Bad B vrf_check pk ck l (d_tree st) t_ok t_wf F F_full vrf_unique n val_of ep_of vals_len eps_u64
             tree_fresh (fun v => nonce_len _ _ _ _) tree_stale_epoch stale_D32 u).
  Qed.

  (* Default mode, complete history: an accepted proof yields exactly the label's stored account, newest first *)
  Theorem history_sound_reachable E p rs : hp_ok p ->
    user_history (d_states st) l (d_epoch st) <> [] -> d_epoch st <= E -> E < 2 ^ 64 ->
    key_history_verify cfg vrf_check pk (snd (epoch_hash cfg st)) E l p HComplete false = Some rs ->
    rs = map entry_of_state (user_history (d_states st) l (d_epoch st)) \/ Bad.
  Proof using Full.
    intros [Pu Pf] _ HE1 HE2 H. rewrite Forall_forall in Pu.
    destruct (history_sound_reachable_gen eq false E p HComplete rs (fun u Hu => update_default u (Pu u Hu)) Pf HE1 HE2 H) as [Fa|]; [|now right].
    left. apply Forall2_eq. exact Fa.
  Qed.

  (* ... and with AllowMissingValues: the same account, each entry as it is or as a tombstone with the
     true epoch (version 1 excepted: K2) *)
  Theorem history_sound_reachable_am E p rs : hp_ok2 p ->
    user_history (d_states st) l (d_epoch st) <> [] -> d_epoch st <= E -> E < 2 ^ 64 ->
    key_history_verify cfg vrf_check pk (snd (epoch_hash cfg st)) E l p HComplete true = Some rs ->
    Forall2 amrel rs (map entry_of_state (user_history (d_states st) l (d_epoch st))) \/ Bad.
  Proof using Full.
    intros [Pu Pf] _ HE1 HE2 H. rewrite Forall_forall in Pu.
    exact (history_sound_reachable_gen amrel true E p HComplete rs (fun u Hu => update_missing u (Pu u Hu)) Pf HE1 HE2 H).
  Qed.

  (* C08 for honest roots: under the epoch hash of a reachable state the two verifiers cannot
     disagree - the lookup result is the first entry of the complete history's result *)
  Theorem lookup_history_agree_reachable E p r hp rs : lp_ok p -> hp_ok hp -> d_epoch st <= E -> E < 2 ^ 64 ->
    lookup_verify cfg vrf_check pk (snd (epoch_hash cfg st)) E l p = Some r ->
    key_history_verify cfg vrf_check pk (snd (epoch_hash cfg st)) E l hp HComplete false = Some rs ->
    (exists rest, rs = r :: rest) \/ Bad.
  Proof using Full.
    intros Hp Hhp HE1 HE2 HL HH.
    destruct (lookup_sound_reachable E p r Hp HL) as [(s & Hs & ->)|]; [|now right].
    destruct (user_history (d_states st) l (d_epoch st)) as [|d0 r0] eqn:Eh.
    - apply latest_in_history in Hs. rewrite Eh in Hs. destruct Hs.
    - destruct (history_sound_reachable E hp rs Hhp ltac:(rewrite Eh; discriminate) HE1 HE2 HH) as [->|]; [|now right].
      left. rewrite Eh. cbn [map]. exists (map entry_of_state r0). f_equal. f_equal.
      pose proof (user_history_head vrf_label st l d0 r0 reach_inv Eh) as Hh.
      congruence.
  Qed.

  (* ... and for MostRecent(r): exactly the first min(r, n) entries of the stored account *)
  Theorem history_recent_sound_reachable E p rs r : hp_ok p ->
    user_history (d_states st) l (d_epoch st) <> [] -> d_epoch st <= E -> E < 2 ^ 64 ->
    key_history_verify cfg vrf_check pk (snd (epoch_hash cfg st)) E l p (HMostRecent r) false = Some rs ->
    rs = map entry_of_state (firstn (N.to_nat r) (user_history (d_states st) l (d_epoch st))) \/ Bad.
  Proof using Full.
    intros [Pu Pf] _ HE1 HE2 H. rewrite Forall_forall in Pu.
    destruct (history_sound_reachable_gen eq false E p (HMostRecent r) rs (fun u Hu => update_default u (Pu u Hu)) Pf HE1 HE2 H) as [Fa|]; [|now right].
    left. apply Forall2_eq. exact Fa.
  Qed.

  Theorem history_recent_sound_reachable_am E p rs r : hp_ok2 p ->
    user_history (d_states st) l (d_epoch st) <> [] -> d_epoch st <= E -> E < 2 ^ 64 ->
    key_history_verify cfg vrf_check pk (snd (epoch_hash cfg st)) E l p (HMostRecent r) true = Some rs ->
    Forall2 amrel rs (map entry_of_state (firstn (N.to_nat r) (user_history (d_states st) l (d_epoch st)))) \/ Bad.
  Proof using Full.
    intros [Pu Pf] _ HE1 HE2 H. rewrite Forall_forall in Pu.
    exact (history_sound_reachable_gen amrel true E p (HMostRecent r) rs (fun u Hu => update_missing u (Pu u Hu)) Pf HE1 HE2 H).
  Qed.

  (* C05 at the directory level: the leaf of a stored state cannot be shown absent *)
  Theorem stored_version_not_deniable_reachable s nl p : In s (d_states st) ->
    vrf_label (vr_user s) true (vr_version s) = Some nl -> np_label p = nl -> nmp_ok p ->
    verify_nonmembership cfg (snd (epoch_hash cfg st)) p = true -> Bad.
  Proof using Invs stale_D32.
    intros Hs Hl Hp Hok Hv.
    pose proof (d2_fresh cfg ck vrf_label st s nl reach_inv2 Hs Hl) as Hin.
    destruct (vrf_good _ _ _ _ Hl) as (W & _ & _).
    destruct (nonmem_sound_b cfg Bad B (d_tree st) p t_ok t_wf Hok ltac:(rewrite Hp; exact W) Hv) as [Hn|]; [|assumption].
    exfalso. apply Hn. rewrite Hp. exact (in_map lf_label _ _ Hin).
  Qed.
End Reachable.
