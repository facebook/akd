(* C13 on the WRITING instance: requests concurrent with a publish whose transaction is open.

   A publish opens a storage transaction, writes the new node records and finally the new epoch record
   into the transaction's log, and commits: the log is drained (the transaction closed) and the
   records are handed to the data layer - or the data layer rejects them and nothing changes.  While
   the transaction is open, reads through the storage manager see its log first.

   A request reads the epoch record (a) and then node records, selected "as of a" from the two
   versions a record retains (PollProto.as_of).  [dirty] = true: the request's read of the EPOCH RECORD
   sees the log too (the code before the fix); [dirty] = false: it reads the epoch record as committed
   (StorageManager::get_committed), node records still through the log.

   Theorem (dirty = false): for every schedule - commits that succeed or are rejected, any number of
   publishes - every answer names a committed epoch a together with version a of the node, or is an
   error.  With dirty = true three schedules found on the code are refuted: the log is gone but the
   data layer not yet written (answer (e+1, version e)); the same after a rejected commit; and a
   rejected commit whose epoch was answered consistently but never existed. *)
From Coq Require Import List Arith Lia Bool.
From Akd Require Import ListFacts PollProto.
Import ListNotations.

Inductive txn := XNone | XOpen (node azks : bool) | XFlight.
(* XOpen n z: open for epoch db+1, the log holds the node record (n) / the epoch record (z);
   XFlight: log drained, the records are on their way to the data layer *)

Inductive upc := U0 | U1 (a : nat) | UDone (a : nat) (r : option nat).

Record xstate := XS { x_db : nat; x_txn : txn; x_reqs : list upc }.

Fixpoint uupd (l : list upc) (i : nat) (x : upc) : list upc :=
  match l, i with
  | [], _ => []
  | _ :: r, O => x :: r
  | a :: r, S j => a :: uupd r j x
  end.

Inductive xaction := XR (i : nat) | XP | XReject.
(* XP: the publisher's next step; XReject: the data layer rejects the commit (or the publish fails
   earlier): the transaction is rolled back *)

Definition epoch_read (dirty : bool) (s : xstate) : nat :=
  match x_txn s with
  | XOpen _ true => if dirty then S (x_db s) else x_db s
  | _ => x_db s
  end.
(* the node record a read returns, given by its latest version *)
Definition node_read (s : xstate) : nat :=
  match x_txn s with
  | XOpen true _ => S (x_db s)
  | _ => x_db s
  end.

Definition xstep (dirty : bool) (s : xstate) (a : xaction) : xstate :=
  match a with
  | XR i =>
    match nth_error (x_reqs s) i with
    | Some U0 => XS (x_db s) (x_txn s) (uupd (x_reqs s) i (U1 (epoch_read dirty s)))
    | Some (U1 a) => XS (x_db s) (x_txn s) (uupd (x_reqs s) i (UDone a (as_of (node_read s) a)))
    | _ => s
    end
  | XP =>
    match x_txn s with
    | XNone => XS (x_db s) (XOpen false false) (x_reqs s)
    | XOpen false z => XS (x_db s) (XOpen true z) (x_reqs s)
    | XOpen true false => XS (x_db s) (XOpen true true) (x_reqs s)
    | XOpen true true => XS (x_db s) XFlight (x_reqs s)
    | XFlight => XS (S (x_db s)) XNone (x_reqs s)
    end
  | XReject => XS (x_db s) XNone (x_reqs s)
  end.

Definition xinit (e0 n : nat) : xstate := XS e0 XNone (repeat U0 n).
Definition xrun (dirty : bool) (s : xstate) (sched : list xaction) : xstate := fold_left (xstep dirty) sched s.

Definition u_ok (s : xstate) (q : upc) : Prop :=
  match q with
  | U0 => True
  | U1 a => a <= x_db s
  | UDone a r => a <= x_db s /\ (r = Some a \/ r = None)
  end.

Lemma u_ok_mono s s' : x_db s <= x_db s' -> forall q, u_ok s q -> u_ok s' q.
Proof. intros H q. destruct q as [|a|a r]; cbn [u_ok]; [auto | lia | intros [A B]; split; [lia | exact B]]. Qed.

Lemma xstep_keeps s a : Forall (u_ok s) (x_reqs s) -> Forall (u_ok (xstep false s a)) (x_reqs (xstep false s a)).
Proof.
  (* [uupd] is ListFacts.upd_nth at [upc] *)
  intros Hr. destruct a as [i| |]; cbn [xstep].
  - destruct (nth_error (x_reqs s) i) as [[|a|a r]|] eqn:E; try exact Hr;
      cbn [x_reqs]; (apply Forall_upd; [exact Hr|]); cbn [u_ok x_db].
    + (* the epoch record is read as committed *)
      unfold epoch_read. destruct (x_txn s) as [|n [|]|]; apply Nat.le_refl.
    + split; [exact (nth_error_Forall _ _ _ _ Hr E)|].
      apply as_of_right. apply (Nat.le_trans _ (x_db s)); [exact (nth_error_Forall _ _ _ _ Hr E)|].
      unfold node_read. destruct (x_txn s) as [|[|] z|]; auto.
  - destruct (x_txn s) as [|[|] [|]|]; cbn [x_reqs]; try exact Hr.
    eapply Forall_impl; [|exact Hr]. apply u_ok_mono. cbn [x_db]. auto.
  - exact Hr.
Qed.

Theorem requests_answer_committed_epochs e0 n sched :
  let s := xrun false (xinit e0 n) sched in
  forall i a r, nth_error (x_reqs s) i = Some (UDone a r) -> a <= x_db s /\ (r = Some a \/ r = None).
Proof.
  intros s i a r. apply (nth_error_Forall (u_ok s)).
  apply (fold_left_inv (fun s => Forall (u_ok s) (x_reqs s))); [intros s0 a0; apply xstep_keeps|].
  apply Forall_repeat. exact I.
Qed.

(* the request reads epoch 3 from the log; the log is drained; the node still comes from the data
   layer, which holds epoch 2: the answer is (3, version 2); then the commit arrives *)
Theorem dirty_epoch_read_refuted_early_close :
  let s := xrun true (xinit 2 1) [XP; XP; XP; XR 0; XP; XR 0; XP] in
  x_db s = 3 /\ nth_error (x_reqs s) 0 = Some (UDone 3 (Some 2)).
Proof. vm_compute. split; reflexivity. Qed.

(* the same with a rejected commit: (3, version 2), and epoch 3 does not exist *)
Theorem dirty_epoch_read_refuted_rejected_commit :
  let s := xrun true (xinit 2 1) [XP; XP; XP; XR 0; XReject; XR 0] in
  x_db s = 2 /\ nth_error (x_reqs s) 0 = Some (UDone 3 (Some 2)).
Proof. vm_compute. split; reflexivity. Qed.

(* a consistent answer for an epoch that never existed *)
Theorem dirty_epoch_read_refuted_unpublished_epoch :
  let s := xrun true (xinit 2 1) [XP; XP; XP; XR 0; XR 0; XReject] in
  x_db s = 2 /\ nth_error (x_reqs s) 0 = Some (UDone 3 (Some 3)).
Proof. vm_compute. split; reflexivity. Qed.

(* the three schedules with the epoch record read as committed *)
Example committed_epoch_read_same_schedules :
  nth_error (x_reqs (xrun false (xinit 2 1) [XP; XP; XP; XR 0; XP; XR 0; XP])) 0 = Some (UDone 2 (Some 2)) /\
  nth_error (x_reqs (xrun false (xinit 2 1) [XP; XP; XP; XR 0; XReject; XR 0])) 0 = Some (UDone 2 (Some 2)) /\
  nth_error (x_reqs (xrun false (xinit 2 1) [XP; XP; XP; XR 0; XR 0; XReject])) 0 = Some (UDone 2 (Some 2)).
Proof. vm_compute. repeat split. Qed.

(* a request that reads its epoch, then sees two further publishes complete, errors *)
Example lagging_request_errors :
  nth_error (x_reqs (xrun false (xinit 2 1) [XR 0; XP; XP; XP; XP; XP; XP; XP; XR 0])) 0 = Some (UDone 2 None).
Proof. vm_compute. reflexivity. Qed.
