(* C04 at the directory level: in every reachable state, for every range s < e <= current epoch, the
   proof returned by [audit] is accepted by [audit_verify] against the epoch hashes that the publishes
   returned for the epochs s..e. *)
From Coq Require Import List Bool Arith NArith Lia Permutation.
From Akd Require Import Directory Verify.
From Akd Require Import Bits NodeLabel NodeLabelFacts ElemSet Hashing Tree TreeFacts
     Spec SpecFacts Insert InsertRefine DirFacts DirRefine AuditComplete.
Import ListNotations.
Open Scope N_scope.

Lemma canon_root_last t : canon_root t -> t_last_epoch t = max_epoch (sleaves t).
Proof. intros H. rewrite <- (canon_root_spec t H) at 1. reflexivity. Qed.

Lemma max_epoch_new E elems : elems <> [] -> max_epoch (map sleaf_of (map (lf_of E) elems)) = E.
Proof.
  intros Hne. induction elems as [|x r IH]; [congruence|]. cbn [map]. rewrite max_epoch_cons. cbn [sleaf_of lf_of lf_epoch sl_epoch].
  destruct r as [|y r']; [cbn; lia|]. rewrite IH by discriminate. lia.
Qed.

Lemma Nrange'_S a n : Nrange' a (S n) = a :: Nrange' (a + 1) n.
Proof.
  unfold Nrange'. cbn [seq map]. f_equal; [lia|]. rewrite <- seq_shift, map_map. apply map_ext. intros k. lia.
Qed.

Section AuditDir.
  Variable cfg : config.
  Variable ck : bytes.
  Variable vrf_label : bytes -> bool -> N -> option nlabel.
  Hypothesis Ce : canonical (c_empty_label cfg) = false.
  Hypothesis vrf_good : forall l f v nl, vrf_label l f v = Some nl -> WF nl /\ canonical nl = true /\ llen nl = 256.
  Hypothesis vrf_inj : forall l f v l' f' v' nl, vrf_label l f v = Some nl -> vrf_label l' f' v' = Some nl -> l = l' /\ f = f' /\ v = v'.

  Notation publish := (Directory.publish cfg ck vrf_label).
  Notation run := (run_publishes cfg ck vrf_label).

  (* the invariant of C01 plus: the newest leaf carries the current epoch *)
  Definition Inv (st : dstate) : Prop := DirInv vrf_label st /\ t_last_epoch (d_tree st) = d_epoch st.

  (* the hash of the tree as of epoch k, read off the CURRENT tree *)
  Definition hash_as_of (st : dstate) (k : N) : bytes := spec_root_hash cfg (as_of k (d_tree st)).

  Lemma publish_history st upds : Inv st ->
    let st' := fst (publish st upds) in
    Inv st' /\ d_epoch st <= d_epoch st' /\ forall k, k <= d_epoch st -> hash_as_of st' k = hash_as_of st k.
  Proof.
    intros [I L]. cbv zeta. destruct (publish st upds) as [st' res] eqn:E. cbn [fst].
    assert (Same : st' = st -> Inv st' /\ d_epoch st <= d_epoch st' /\ forall k, k <= d_epoch st -> hash_as_of st' k = hash_as_of st k).
    { intros ->. split; [split; assumption|]. split; [lia|]. reflexivity. }
    destruct res as [[e h]| | | | |]; try (apply Same, (publish_not_ok_same cfg ck vrf_label _ _ _ _ E); discriminate).
    (* an accepted request: nothing derived and nothing changed, or a batch of new leaves under the next epoch *)
    destruct (publish_ok_inv cfg ck vrf_label _ _ _ _ E) as (_ & _ & elems & news & Ed & [[_ Es]|[Hne _]]); [exact (Same Es)|].
    destruct (publish_step cfg ck vrf_label Ce vrf_good vrf_inj st upds st' _ _ I E) as (I' & _ & _ & [Eq|(elems2 & news2 & Ed2 & Ee & _ & P)]); [exact (Same Eq)|].
    rewrite Ed in Ed2. injection Ed2 as <- <-.
    destruct I as [[Cr Lo] _ _ _ _ _]. destruct I' as [[Cr' Lo'] X1 X2 X3 X4 X5].
    split; [split; [constructor; try assumption; split; assumption|]|].
    - rewrite (canon_root_last _ Cr'). unfold sleaves. rewrite (max_epoch_perm _ _ (Permutation_map sleaf_of P)).
      rewrite map_app, max_epoch_app, (max_epoch_new _ _ Hne). fold (sleaves (d_tree st)). rewrite <- (canon_root_last _ Cr), L. lia.
    - split; [lia|]. intros k Hk. unfold hash_as_of, spec_root_hash. f_equal. apply spec_root_perm.
      unfold as_of, sleaves. eapply Permutation_trans; [apply filter_perm; apply Permutation_map; exact P|].
      rewrite map_app, filter_app.
      rewrite (filter_none _ (map sleaf_of (map (lf_of (d_epoch st + 1)) elems))).
      + rewrite app_nil_r. apply Permutation_refl.
      + intros x Hx. apply in_map_iff in Hx. destruct Hx as (y & <- & Hy). apply in_map_iff in Hy. destruct Hy as (z & <- & _).
        cbn [sleaf_of lf_of lf_epoch sl_epoch]. apply N.leb_gt. lia.
  Qed.

  Lemma dir_new_Inv : Inv dir_new.
  Proof. split; [apply dir_new_inv | reflexivity]. Qed.

  Lemma run_Inv : forall reqs st, Inv st -> Inv (run st reqs).
  Proof. induction reqs as [|r rest IH]; intros st I; [exact I|]. cbn [run_publishes]. apply IH. apply (publish_history st r I). Qed.

  Lemma hash_now st : Inv st -> snd (epoch_hash cfg st) = hash_as_of st (d_epoch st).
  Proof.
    intros [[[Cr Lo] _ _ _ _ _] _]. cbn [epoch_hash snd]. rewrite (canon_root_hash cfg _ Cr). unfold hash_as_of, as_of. f_equal.
    symmetry. apply filter_all. intros x Hx. unfold sleaves in Hx. apply in_map_iff in Hx. destruct Hx as (y & <- & Hy).
    cbn [sleaf_of sl_epoch]. apply N.leb_le. apply Lo. exact Hy.
  Qed.

  Lemma hash_kept : forall rest k st1, Inv st1 -> k <= d_epoch st1 ->
    d_epoch st1 <= d_epoch (run st1 rest) /\ hash_as_of (run st1 rest) k = hash_as_of st1 k.
  Proof.
    induction rest as [|r2 rest IH]; intros k st1 I1 Hk; [split; [cbn [run_publishes]; lia | reflexivity]|].
    cbn [run_publishes]. destruct (publish_history st1 r2 I1) as (I2 & Hle & Hkeep).
    destruct (IH k _ I2 ltac:(lia)) as [Hle2 Eq]. split; [lia|]. rewrite Eq. apply Hkeep. exact Hk.
  Qed.

  Theorem history_of_hashes later st : Inv st ->
    d_epoch st <= d_epoch (run st later) /\
    snd (epoch_hash cfg st) = hash_as_of (run st later) (d_epoch st).
  Proof.
    intros I. destruct (hash_kept later (d_epoch st) st I ltac:(lia)) as [Hle Eq].
    split; [exact Hle|]. rewrite Eq. apply hash_now. exact I.
  Qed.

  Lemma chain_complete T : canon_root T -> forall n s,
    s + N.of_nat n <= t_last_epoch T ->
    verify_chain cfg true (map (fun k => spec_root_hash cfg (as_of k T)) (Nrange' s (S n)))
      (map (fun ep => let '(unch, ins) := ao_walk cfg 300 true T ep (ep + 1) in (ins, unch)) (Nrange' s n)) (Nrange' s n) = true.
  Proof.
    intros HT. induction n as [|n IH]; intros s Hs.
    - reflexivity.
    - rewrite (Nrange'_S s (S n)), (Nrange'_S s n). cbn [map]. rewrite (Nrange'_S (s + 1) n). cbn [map verify_chain].
      apply andb_true_iff. split.
      + pose proof (audit_step_complete cfg Ce T s HT ltac:(lia)) as H. cbv zeta in H.
        destruct (ao_walk cfg 300 true T s (s + 1)) as [unch ins]. exact H.
      + specialize (IH (s + 1) ltac:(lia)). rewrite (Nrange'_S (s + 1) n) in IH. cbn [map] in IH. exact IH.
  Qed.

  Lemma Nrange'_length a n : length (Nrange' a n) = n.
  Proof. unfold Nrange'. rewrite map_length, seq_length. reflexivity. Qed.

  Theorem audit_complete st s e p : Inv st -> audit cfg st s e = DOk p ->
    audit_verify_gen cfg true (map (hash_as_of st) (Nrange' s (S (N.to_nat (e - s))))) p = true.
  Proof.
    intros [[[Cr _] _ _ _ _ _] L] H.
    unfold audit in H. destruct (N.leb_spec e s) as [|Hse]; [discriminate|]. destruct (N.ltb_spec (d_epoch st) e) as [|Hed]; [discriminate|].
    set (n := N.to_nat (e - s)) in *.
    assert (Hp : p = AP (map (fun ep => let '(unch, ins) := ao_walk cfg 300 true (d_tree st) ep (ep + 1) in (ins, unch)) (Nrange' s n)) (Nrange' s n)) by congruence.
    clear H. subst p. unfold audit_verify_gen. cbn [ap_epochs ap_proofs].
    rewrite !map_length, !Nrange'_length.
    assert (E1 : Nat.eqb (n + 1) (S n) = true) by (apply Nat.eqb_eq; lia).
    rewrite E1, Nat.eqb_refl. cbn [andb]. unfold hash_as_of.
    apply (chain_complete (d_tree st) Cr n s). rewrite L. unfold n. lia.
  Qed.

  Lemma run_app : forall a b st, run st (a ++ b) = run (run st a) b.
  Proof. induction a as [|r a IH]; intros b st; [reflexivity|]. cbn [app run_publishes]. apply IH. Qed.

  (* C04: every range of a reachable directory can be audited, against the hashes the publishes
     returned *)
  Theorem audit_reachable reqs s e p :
    let st := run dir_new reqs in
    audit cfg st s e = DOk p ->
    audit_verify_gen cfg true (map (hash_as_of st) (Nrange' s (S (N.to_nat (e - s))))) p = true.
  Proof. cbv zeta. apply audit_complete. apply run_Inv. apply dir_new_Inv. Qed.

  Theorem published_hashes earlier later :
    let st1 := run dir_new earlier in
    let st := run dir_new (earlier ++ later) in
    d_epoch st1 <= d_epoch st /\ epoch_hash cfg st1 = (d_epoch st1, hash_as_of st (d_epoch st1)).
  Proof.
    cbv zeta. rewrite run_app.
    destruct (history_of_hashes later (run dir_new earlier) (run_Inv earlier dir_new dir_new_Inv)) as [H1 H2].
    split; [exact H1|]. rewrite <- H2. reflexivity.
  Qed.
End AuditDir.

(* C04: for every valid range the server produces a proof *)
Theorem audit_available cfg st s e : s < e -> e <= d_epoch st -> exists p, audit cfg st s e = DOk p.
Proof.
  intros H1 H2. unfold audit. destruct (N.leb_spec e s) as [H|H]; [exfalso; apply (N.lt_irrefl s); eapply N.lt_le_trans; eassumption|].
  destruct (N.ltb_spec (d_epoch st) e) as [H'|H']; [exfalso; apply (N.lt_irrefl e); eapply N.le_lt_trans; eassumption|]. eexists. reflexivity.
Qed.
