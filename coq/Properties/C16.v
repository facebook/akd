(* C16 - The object cache never changes what a read returns.
   Model: Manager.v (cache = arbitrary partial copy of the database; eviction by expiry or memory
   pressure is the environment step [evict] with ANY key list, so the theorems hold for every
   choice the clock and the memory-pressure arithmetic could make). *)
From Coq Require Import List Bool NArith.
From Akd Require Import Manager ManagerFacts MgrBatch.
Import ListNotations.
Open Scope N_scope.

(* the invariant ([coherent]: every cached record equals the database's record for that key)
   holds initially and is preserved by every operation - whatever the database rejects - and by
   every eviction and flush *)
Theorem C16_inv_init : forall cached, Inv (init_state cached).
Proof. exact Inv_init. Qed.
Print Assumptions C16_inv_init.

Theorem C16_inv_steps : forall s, Inv s ->
  (forall ks, Inv (evict s ks)) /\ Inv (flush s) /\ Inv (fst (begin_transaction s)) /\
  (forall f, Inv (fst (commit_transaction s f))) /\ Inv (fst (rollback_transaction s)) /\
  (forall r f, Inv (fst (set_record s r f))) /\ (forall rs f, Inv (fst (batch_set s rs f))) /\
  (forall k f, Inv (fst (get_record s k f))) /\ (forall ks f, Inv (fst (batch_get s ks f))) /\
  (forall u fl f, Inv (fst (get_user_state s u fl f))) /\ (forall u f, Inv (fst (get_user_data s u f))) /\
  (forall us fl f, Inv (fst (get_user_state_versions s us fl f))) /\
  (forall u e f1 f2, Inv (fst (tombstone s u e f1 f2))).
Proof. exact Inv_steps. Qed.
Print Assumptions C16_inv_steps.

(* a read returns the pending transaction value if there is one, else exactly what the database
   holds - independently of the cache content *)
Theorem C16_read : forall s k, Inv s ->
  snd (get_record s k false) =
  match (if m_active s then kget (m_mods s) k else None) with
  | Some r => Ok r
  | None => match kget (m_db s) k with Some r => Ok r | None => Err ENotFound end
  end.
Proof. exact get_record_spec. Qed.
Print Assumptions C16_read.

(* batch reads outside a transaction: exactly the database's records of the requested keys, whatever
   part of them the cache holds *)
Theorem C16_batch_read : forall s ks, Inv s -> m_active s = false ->
  exists l, snd (batch_get s ks false) = Ok l /\
            forall r, In r l <-> exists k, In k ks /\ kget (m_db s) k = Some r.
Proof. exact batch_get_is_db. Qed.
Print Assumptions C16_batch_read.

(* reads of what is committed (the way requests read the epoch record): the database's record,
   whatever the cache holds and whatever an open transaction has pending *)
Theorem C16_read_committed : forall s k, Inv s ->
  snd (get_committed s k false) = match kget (m_db s) k with Some r => Ok r | None => Err ENotFound end /\
  m_db (fst (get_committed s k false)) = m_db s /\ m_mods (fst (get_committed s k false)) = m_mods s /\
  m_active (fst (get_committed s k false)) = m_active s.
Proof. exact (fun s k HI => conj (get_committed_result s k HI) (get_committed_frame s k false)). Qed.
Print Assumptions C16_read_committed.

(* after a flush the next read of the epoch record reflects storage *)
Theorem C16_flush : forall s, m_active s = false ->
  snd (get_record (flush s) KAzks false) = match kget (m_db s) KAzks with Some r => Ok r | None => Err ENotFound end.
Proof. exact (fun s => flush_then_get s KAzks). Qed.
Print Assumptions C16_flush.

Example C16_hyp_sat : exists s, Inv s /\ m_cache s <> None /\ m_db s <> [] /\
  s = fst (set_record (init_state true) (RAzks 1 1) false).
Proof. eexists. split; [apply Inv_set; apply Inv_init|]. repeat split; discriminate. Qed.

(* ---- the concurrent case: a read's cache fill against a write-through, any number of tasks,
   every step of every task a scheduling point (CacheProto.v; TicketLocked = the protocol of the code) *)
From Akd Require Import CacheProto CacheRegular.
Close Scope N_scope.

(* in every reachable state in which no write is in progress the cache holds nothing or what the data
   layer holds *)
Theorem C16_concurrent_coherent : forall d rs ws sched,
  let s := prun TicketLocked (pinit d rs ws) sched in
  PInv s /\ (p_started s = p_completed s -> p_cache s = None \/ p_cache s = Some (p_db s)).
Proof. exact ticket_protocol_coherent. Qed.
Print Assumptions C16_concurrent_coherent.

Theorem C16_cached_read_is_current : forall d rs ws sched v,
  let s := prun TicketLocked (pinit d rs ws) sched in
  p_started s = p_completed s -> p_cache s = Some v -> v = p_db s.
Proof. exact cached_read_is_current. Qed.
Print Assumptions C16_cached_read_is_current.

(* in any such state (the invariant holds in every reachable one) a read that runs while no write is in
   progress returns the data layer's record, whether the cache serves it or not *)
Theorem C16_quiet_read_returns_db : forall s i,
  PInv s -> p_started s = p_completed s -> nth_error (p_readers s) i = Some RS ->
  let s' := prun TicketLocked s [AR i; AR i; AR i; AR i; AR i] in
  nth_error (p_readers s') i = Some (RDone (p_db s)) /\ p_db s' = p_db s.
Proof. exact quiet_read_returns_db. Qed.
Print Assumptions C16_quiet_read_returns_db.

(* the same for tasks (sequences of reads and writes) parked and released at the data layer's calls -
   the executions the correspondence harness drives on the real storage manager *)
Theorem C16_concurrent_tasks_coherent : forall d rs ws tasks sched,
  let s := fst (trun TicketLocked d rs ws tasks sched) in
  p_started s = p_completed s -> p_cache s = None \/ p_cache s = Some (p_db s).
Proof. exact task_runs_coherent. Qed.
Print Assumptions C16_concurrent_tasks_coherent.

(* the two weaker protocols are refuted: the code before the fix (K3), and the ticket checked outside
   the cache's lock *)
Theorem C16_fill_without_ticket_refuted :
  let s := prun NoTicket (pinit 0 [false] [1]) k3_schedule in
  p_started s = p_completed s /\ p_db s = 1 /\ p_cache s = Some 0.
Proof. exact without_ticket_refuted. Qed.
Print Assumptions C16_fill_without_ticket_refuted.

Theorem C16_check_outside_lock_refuted :
  let s := prun TicketSplit (pinit 0 [false] [1]) split_schedule in
  p_started s = p_completed s /\ p_db s = 1 /\ p_cache s = Some 0.
Proof. exact split_check_refuted. Qed.
Print Assumptions C16_check_outside_lock_refuted.

(* ---- what a read may return WHILE writes are going on (CacheRegular.v).  The run carries a ghost
   state: for every read its admissible values - the value of the last completed write and the data
   layer's value when the read starts, plus every value put into the data layer while the read is
   active.  Under every schedule a finished read has returned one of them: reads through the cache
   are regular (old or new of an overlapping write, the data layer's value otherwise). *)
Theorem C16_reads_are_regular : forall d rs ws sched,
  let x := grun (ginit d rs ws) sched in
  forall i v, nth_error (p_readers (fst x)) i = Some (RDone v) -> In v (g_adm (snd x) i).
Proof. exact reads_are_regular. Qed.
Print Assumptions C16_reads_are_regular.

(* the ghost state does not influence the run *)
Theorem C16_ghost_run_projects : forall d rs ws sched,
  fst (grun (ginit d rs ws) sched) = prun TicketLocked (pinit d rs ws) sched.
Proof. exact grun_projects. Qed.
Print Assumptions C16_ghost_run_projects.

(* ---- many keys (CacheMulti.v): the counters of started and completed writes are shared by all keys,
   the data layer and the cache are maps; under every schedule, evictions included, whenever no write
   is in progress the cache holds, for EVERY key, nothing or what the data layer holds *)
From Akd Require Import CacheMulti.
Theorem C16_many_keys_coherent : forall d rs ws sched,
  let s := mrun (minit d rs ws) sched in
  m_started s = m_completed s -> forall x, m_cache s x = None \/ m_cache s x = Some (m_db s x).
Proof. exact many_keys_coherent. Qed.
Print Assumptions C16_many_keys_coherent.
