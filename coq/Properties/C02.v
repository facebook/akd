(* C02 - Lookup returns a verifying proof of the latest value for every published label. *)
From Coq Require Import List Bool NArith.
From Akd Require Import NodeLabel Hashing Tree Directory Verify DirFacts.
From Akd Require DirRefine NodeLabelFacts LookupComplete.
Import ListNotations.
Open Scope N_scope.

Theorem C02_unpublished_refused : forall cfg ck vl vp st l,
  latest_state (d_states st) l (d_epoch st) = None -> lookup cfg ck vl vp st l = DErrNotFound.
Proof. exact lookup_absent. Qed.
Print Assumptions C02_unpublished_refused.

(* the proof reports the latest state, comes with the current epoch hash, and its existence and
   marker membership proofs verify against that hash (for every tree and hash function) *)
Theorem C02_lookup_reports_latest : forall cfg ck vl vp st l p eh,
  tlabel (d_tree st) = nl_root -> is_leaf (d_tree st) = false ->
  lookup cfg ck vl vp st l = DOk (p, eh) ->
  eh = epoch_hash cfg st /\
  (exists s, latest_state (d_states st) l (d_epoch st) = Some s /\
             lp_epoch p = vr_epoch s /\ lp_version p = vr_version s /\ lp_value p = vr_value s) /\
  verify_membership cfg (snd eh) (lp_existence p) = true /\
  verify_membership cfg (snd eh) (lp_marker p) = true.
Proof. exact lookup_ok. Qed.
Print Assumptions C02_lookup_reports_latest.

(* under non-colliding, well-formed VRF outputs every tree-related part of the proof an honest
   directory returns verifies against the returned root hash - including the freshness part
   (non-membership of the stale label of the current version), in every reachable state *)
Theorem C02_tree_parts_verify : forall cfg ck (vl : bytes -> bool -> N -> option nlabel) vp,
  canonical (c_empty_label cfg) = false ->
  (forall l f v nl, vl l f v = Some nl -> NodeLabelFacts.WF nl /\ canonical nl = true /\ llen nl = 256) ->
  (forall l f v l' f' v' nl, vl l f v = Some nl -> vl l' f' v' = Some nl -> l = l' /\ f = f' /\ v = v') ->
  forall st l p eh, DirRefine.DirInv vl st -> lookup cfg ck vl vp st l = DOk (p, eh) ->
  eh = epoch_hash cfg st /\
  verify_membership cfg (snd eh) (lp_existence p) = true /\
  verify_membership cfg (snd eh) (lp_marker p) = true /\
  verify_nonmembership cfg (snd eh) (lp_freshness p) = true.
Proof. exact DirRefine.lookup_tree_parts_verify. Qed.
Print Assumptions C02_tree_parts_verify.

(* the invariant holds in every state reachable by publish requests *)
Theorem C02_invariant_reachable : forall cfg ck (vl : bytes -> bool -> N -> option nlabel),
  canonical (c_empty_label cfg) = false ->
  (forall l f v nl, vl l f v = Some nl -> NodeLabelFacts.WF nl /\ canonical nl = true /\ llen nl = 256) ->
  (forall l f v l' f' v' nl, vl l f v = Some nl -> vl l' f' v' = Some nl -> l = l' /\ f = f' /\ v = v') ->
  forall reqs, DirRefine.DirInv vl (DirRefine.run_publishes cfg ck vl dir_new reqs).
Proof. exact (fun cfg ck vl H1 H2 H3 reqs => proj1 (DirRefine.directory_always_spec cfg ck vl H1 H2 H3 reqs)). Qed.
Print Assumptions C02_invariant_reachable.

(* END TO END: in every state reachable by publish requests, the proof returned for a published
   label is accepted by the client's verifier (lookup_verify) against the returned epoch hash and
   yields exactly the label's latest (epoch, version, value).  Premises: the properties of the VRF
   layer (C18): outputs are well-formed 256-bit labels, do not collide, and the server's proof
   verifies under the public key to the output. *)
Theorem C02_lookup_accepted_and_latest :
  forall cfg ck (vl : bytes -> bool -> N -> option nlabel) (vp : bytes -> bool -> N -> option bytes)
         (vc : bytes -> bytes -> bytes -> option bytes) pk,
  canonical (c_empty_label cfg) = false ->
  (forall l f v nl, vl l f v = Some nl -> NodeLabelFacts.WF nl /\ canonical nl = true /\ llen nl = 256) ->
  (forall l f v l' f' v' nl, vl l f v = Some nl -> vl l' f' v' = Some nl -> l = l' /\ f = f' /\ v = v') ->
  (forall l f v nl pr, vl l f v = Some nl -> vp l f v = Some pr -> vc pk pr (label_input_hash cfg l f v) = Some (lval nl)) ->
  forall st l p eh, LookupComplete.DirInv2 cfg ck vl st -> lookup cfg ck vl vp st l = DOk (p, eh) ->
  exists s, latest_state (d_states st) l (d_epoch st) = Some s /\
            lookup_verify cfg vc pk (snd eh) (fst eh) l p = Some (VRes (vr_epoch s) (vr_version s) (vr_value s)).
Proof. exact LookupComplete.lookup_complete. Qed.
Print Assumptions C02_lookup_accepted_and_latest.

Theorem C02_invariant2_reachable :
  forall cfg ck (vl : bytes -> bool -> N -> option nlabel) (vp : bytes -> bool -> N -> option bytes)
         (vc : bytes -> bytes -> bytes -> option bytes) pk,
  canonical (c_empty_label cfg) = false ->
  (forall l f v nl, vl l f v = Some nl -> NodeLabelFacts.WF nl /\ canonical nl = true /\ llen nl = 256) ->
  (forall l f v l' f' v' nl, vl l f v = Some nl -> vl l' f' v' = Some nl -> l = l' /\ f = f' /\ v = v') ->
  (forall l f v nl pr, vl l f v = Some nl -> vp l f v = Some pr -> vc pk pr (label_input_hash cfg l f v) = Some (lval nl)) ->
  forall reqs, LookupComplete.DirInv2 cfg ck vl (DirRefine.run_publishes cfg ck vl dir_new reqs).
Proof. exact LookupComplete.inv2_reachable. Qed.
Print Assumptions C02_invariant2_reachable.
