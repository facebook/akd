(* C05 - Tree membership and non-membership proofs are sound and complete.
   Statements over the tree-level model (Tree.v), for both real configurations, for ALL candidate
   proofs (not only those the honest prover emits).  H is the underlying byte hash (BLAKE3 in the
   code); the only facts used about it are its 32-byte output length and, as an explicit disjunct,
   the absence of the bad event (a collision; for the experimental configuration also a preimage of
   the all-zero digest, because that configuration uses the zero digest as its empty value). *)
From Coq Require Import List Bool NArith.
From Akd Require Import Bits NodeLabel NodeLabelFacts Hashing Tree TreeFacts HashingFacts TreeComplete.
From Akd Require SpecFacts NonMemComplete Binding HashingBinding.
Import ListNotations.
Open Scope N_scope.

Section C05.
  Variable H : bytes -> bytes.
  Hypothesis H_len : forall x, length (H x) = 32%nat.
  Variable domain : bytes.

  (* Membership soundness: a verifying membership proof names a node of the tree (label and
     value), or - only for the pair (empty label, empty node hash) - an empty child slot. *)
  Theorem C05_mem_sound_whatsapp : forall t mp,
    tree_ok t -> tlabel t = nl_root -> is_leaf t = false -> mp_ok mp ->
    verify_membership (whatsapp H) (root_hash (whatsapp H) true t) mp = true ->
    Origin (whatsapp H) (mp_label mp) (mp_hash_val mp) t \/ Collision H.
  Proof. exact (Binding.mem_sound_b _ _ (HashingBinding.whatsapp_binding H H_len)). Qed.

  Theorem C05_mem_sound_experimental : forall t mp,
    tree_ok t -> tlabel t = nl_root -> is_leaf t = false -> mp_ok mp ->
    verify_membership (experimental H domain) (root_hash (experimental H domain) true t) mp = true ->
    Origin (experimental H domain) (mp_label mp) (mp_hash_val mp) t \/ BadE H.
  Proof. exact (Binding.mem_sound_b _ _ (HashingBinding.experimental_binding H H_len domain)). Qed.

  (* Non-membership soundness (after fix F1): against the root hash of a well-formed tree no
     non-membership proof verifies for the label of a leaf. *)
  Theorem C05_nonmem_sound_whatsapp : forall t p,
    tree_ok t -> wf_root t = true -> nmp_ok p -> WF (np_label p) ->
    verify_nonmembership (whatsapp H) (root_hash (whatsapp H) true t) p = true ->
    ~ In (np_label p) (map lf_label (leaves t)) \/ Collision H.
  Proof. exact (Binding.nonmem_sound_b _ _ (HashingBinding.whatsapp_binding H H_len)). Qed.

  Theorem C05_nonmem_sound_experimental : forall t p,
    tree_ok t -> wf_root t = true -> nmp_ok p -> WF (np_label p) ->
    verify_nonmembership (experimental H domain) (root_hash (experimental H domain) true t) p = true ->
    ~ In (np_label p) (map lf_label (leaves t)) \/ BadE H.
  Proof. exact (Binding.nonmem_sound_b _ _ (HashingBinding.experimental_binding H H_len domain)). Qed.

  (* Completeness (membership side): the proof the honest prover returns always verifies, for
     every configuration and hash function. *)
  Theorem C05_gen_membership_verifies : forall cfg t x,
    tlabel t = nl_root -> is_leaf t = false ->
    verify_membership cfg (root_hash cfg true t) (get_membership_proof cfg t x) = true.
  Proof. exact gen_membership_verifies. Qed.
End C05.
Print Assumptions C05_mem_sound_whatsapp.
Print Assumptions C05_mem_sound_experimental.
Print Assumptions C05_nonmem_sound_whatsapp.
Print Assumptions C05_nonmem_sound_experimental.
Print Assumptions C05_gen_membership_verifies.

(* Why the child-prefix check (fix F1) is needed: without it the D1 shape is accepted.  The
   witness is evaluated with a transparent "hash" (concatenation) so that it runs inside Coq. *)

(* Completeness (non-membership side): on a canonical tree whose leaves carry 256-bit labels - which
   is what the directory's tree always is (C01) - the proof the honest prover returns for an absent
   256-bit label verifies, for every configuration whose empty label is not canonical and every
   hash function. *)
Theorem C05_gen_nonmembership_verifies : forall cfg, canonical (c_empty_label cfg) = false ->
  forall x, NodeLabelFacts.WF x -> canonical x = true -> length (bits_of x) = 256%nat ->
  forall t, SpecFacts.canon_root t ->
  (forall y, In y (leaves t) -> length (bits_of (lf_label y)) = 256%nat) ->
  (forall y, In y (leaves t) -> lf_label y <> x) ->
  verify_nonmembership cfg (root_hash cfg true t) (get_non_membership_proof cfg t x) = true.
Proof. exact NonMemComplete.nonmembership_complete. Qed.
Print Assumptions C05_gen_nonmembership_verifies.

(* ------------------------------------------------------------------ at the directory level *)
From Akd Require Import Binding Directory DirRefine.
From Akd Require DirSoundReach.
(* After ANY sequence of publish requests: the leaf of a stored version cannot be shown absent against
   the served epoch hash - a verifying non-membership proof for its node label exhibits the bad event
   of the configuration.  (The well-formed-tree premise of the theorems above is discharged for the
   directory's tree.) *)
Theorem C05_published_version_cannot_be_denied :
  forall (cfg : config) (Bad : Prop), Binding cfg Bad ->
  forall (ck : bytes) (vrf_label : bytes -> bool -> N -> option nlabel),
  (forall l f v nl, vrf_label l f v = Some nl -> WF nl /\ canonical nl = true /\ llen nl = 256) ->
  (forall l f v l' f' v' nl, vrf_label l f v = Some nl -> vrf_label l' f' v' = Some nl -> l = l' /\ f = f' /\ v = v') ->
  (bytes -> bytes -> bytes -> option bytes) -> bytes ->
  D32 (c_stale_value cfg) ->
  forall reqs s nl p,
  let st := run_publishes cfg ck vrf_label dir_new reqs in
  In s (d_states st) -> vrf_label (vr_user s) true (vr_version s) = Some nl -> np_label p = nl -> nmp_ok p ->
  verify_nonmembership cfg (snd (epoch_hash cfg st)) p = true -> Bad.
Proof. exact DirSoundReach.stored_version_not_deniable_reachable. Qed.
Print Assumptions C05_published_version_cannot_be_denied.
