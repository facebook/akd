(* Soundness of lookup and key-history verification against the tree of an honestly maintained
   directory (C06, C07), up to the explicit bad event of the hash binding.  The VRF enters as the
   function [nlabel_of] together with the uniqueness hypothesis vrf_unique (a verifying proof's
   output is the function value) - a Section hypothesis, not an axiom. *)
From Coq Require Import List Bool Arith NArith Lia.
From Akd Require Import Bits NodeLabel NodeLabelFacts Hashing Tree TreeFacts Binding Marker MarkerFacts Directory Verify DirRefine HistEnd.
Import ListNotations.
Open Scope N_scope.

Definition entry_of (u : update_proof) : verify_result := VRes (up_epoch u) (up_version u) (up_value u).

Section VerifyInv.
  Variable cfg : config.
  Variable vrf_check : bytes -> bytes -> bytes -> option bytes.
  Variable pk : bytes.

  Lemma lookup_verify_inv root E l p r : lookup_verify cfg vrf_check pk root E l p = Some r ->
    r = VRes (lp_epoch p) (lp_version p) (lp_value p) /\ lp_version p <= E /\ lp_version p <> 0 /\
    verify_existence_with_val cfg vrf_check pk root l (lp_value p) (lp_epoch p) (lp_nonce p) true (lp_version p)
                              (lp_existence_vrf p) (lp_existence p) = true /\
    verify_existence cfg vrf_check pk root l true (lookup_marker (lp_version p)) (lp_marker_vrf p) (lp_marker p) = true /\
    verify_nonexistence cfg vrf_check pk root l false (lp_version p) (lp_freshness_vrf p) (lp_freshness p) = true.
  Proof.
    unfold lookup_verify. destruct (N.ltb_spec E (lp_version p)) as [|HE]; [discriminate|].
    destruct (verify_existence_with_val _ _ _ _ _ _ _ _ _ _ _ _); [|discriminate]. cbn [negb].
    destruct (N.eqb_spec (lp_version p) 0) as [|H0]; [discriminate|].
    destruct (verify_existence _ _ _ _ _ _ _ _ _); [|discriminate]. cbn [negb].
    destruct (verify_nonexistence _ _ _ _ _ _ _ _ _); [|discriminate]. cbn [negb].
    intros [= <-]. auto 6.
  Qed.

  Lemma verify_single_update_inv root l am u res :
    verify_single_update cfg vrf_check pk root l am u = Some res ->
    res = entry_of u /\
    (if am && is_tombstone (up_value u)
     then verify_existence cfg vrf_check pk root l true (up_version u) (up_existence_vrf u) (up_existence u)
     else verify_existence_with_val cfg vrf_check pk root l (up_value u) (up_epoch u) (up_nonce u) true (up_version u)
                                    (up_existence_vrf u) (up_existence u)) = true /\
    (1 < up_version u -> exists pm pv, up_prev u = Some pm /\ up_prev_vrf u = Some pv /\
       verify_existence_with_commitment cfg vrf_check pk root l (c_stale_value cfg) (up_epoch u) false (up_version u - 1) pv pm = true).
  Proof.
    unfold verify_single_update. destruct (if am && is_tombstone (up_value u) then _ else _); [|discriminate]. cbn [negb].
    destruct (N.leb_spec (up_version u) 1) as [Hv|Hv].
    - intros [= <-]. split; [reflexivity|]. split; [reflexivity|]. intros Hv'. apply N.lt_nge in Hv'. contradiction.
    - destruct (up_prev u) as [pm|]; [|discriminate]. destruct (up_prev_vrf u) as [pv|]; [|discriminate].
      destruct (verify_existence_with_commitment _ _ _ _ _ _ _ _ _ _ _) eqn:Ec; [|discriminate].
      intros [= <-]. split; [reflexivity|]. split; [reflexivity|]. intros _. exists pm, pv. auto.
  Qed.

  Lemma verify_updates_each root l am us : forall prev rs,
    verify_updates cfg vrf_check pk root l am prev us = Some rs ->
    rs = map entry_of us /\ forall u, In u us -> verify_single_update cfg vrf_check pk root l am u = Some (entry_of u).
  Proof.
    induction us as [|u us IH]; intros prev rs H; cbn [verify_updates] in H.
    - injection H as <-. split; [reflexivity | intros u []].
    - destruct (match prev with Some pe => pe <? up_epoch u | None => false end); [discriminate|].
      destruct (verify_single_update cfg vrf_check pk root l am u) as [res|] eqn:E1; [|discriminate].
      destruct (verify_updates cfg vrf_check pk root l am (Some (up_epoch u)) us) as [rest|] eqn:E2; [|discriminate].
      injection H as <-. destruct (verify_single_update_inv _ _ _ _ _ E1) as (-> & _). destruct (IH _ _ E2) as [-> Hall].
      split; [reflexivity|]. intros u' [<-|Hin]; [exact E1 | exact (Hall u' Hin)].
  Qed.

  Lemma key_history_verify_inv root E l p params am rs :
    key_history_verify cfg vrf_check pk root E l p params am = Some rs ->
    exists past future, verify_history_shape E p params = Some (past, future) /\
      verify_updates cfg vrf_check pk root l am None (hp_updates p) = Some rs /\
      forall3 (fun v vp mp => verify_existence cfg vrf_check pk root l true v vp mp) past (hp_past_vrf p) (hp_past p) = true /\
      forall3 (fun v vp np => verify_nonexistence cfg vrf_check pk root l true v vp np) future (hp_future_vrf p) (hp_future p) = true.
  Proof.
    unfold key_history_verify. destruct (verify_history_shape E p params) as [[past future]|]; [|discriminate].
    destruct (verify_updates _ _ _ _ _ _ None (hp_updates p)) as [results|]; [|discriminate].
    destruct (forall3 _ past _ _) eqn:Fp; [|discriminate]. cbn [negb]. destruct (forall3 _ future _ _) eqn:Ff; [|discriminate]. cbn [negb].
    intros [= <-]. exists past, future. split; [reflexivity|]. split; [reflexivity|]. split; assumption.
  Qed.
End VerifyInv.

Lemma forall3_In {X Y} (f : N -> X -> Y -> bool) vs : forall xs ys, forall3 f vs xs ys = true ->
  forall v, In v vs -> exists x y, In y ys /\ f v x y = true.
Proof.
  induction vs as [|v0 vs IH]; intros xs ys H v Hin; [destruct Hin|].
  destruct xs as [|x xs]; [discriminate|]. destruct ys as [|y ys]; [discriminate|].
  simpl in H. apply andb_true_iff in H. destruct H as [H1 H2]. destruct Hin as [<-|Hin].
  - exists x, y. split; [now left|exact H1].
  - destruct (IH xs ys H2 v Hin) as (x' & y' & Hy & Hf). exists x', y'. split; [now right|exact Hf].
Qed.

Section LookupSound.
  Variable cfg : config.
  Variable Bad : Prop.
  Hypothesis B : Binding cfg Bad.
  Variable vrf_check : bytes -> bytes -> bytes -> option bytes.
  Variable pk ck l : bytes.
  Variable t : tree.
  Hypothesis t_ok : tree_ok t.
  Hypothesis t_wf : wf_root t = true.

  (* the VRF as a function of (freshness, version) for the label l *)
  Variable nlabel_of : bool -> N -> nlabel.
  Hypothesis nlabel_full : forall f v, llen (nlabel_of f v) = 256 /\ WF (nlabel_of f v) /\ LW (nlabel_of f v).
  (* versions are u64 values in the code: beyond 2^64 the 8-byte encoding inside the VRF input wraps *)
  Hypothesis vrf_unique : forall proof f v out, v < 2 ^ 64 ->
    vrf_check pk proof (label_input_hash cfg l f v) = Some out -> NL out 256 = nlabel_of f v.

  (* the label's true history: versions 1..n with their values and epochs *)
  Variable n : N.
  Variable val_of : N -> bytes.
  Variable ep_of : N -> N.
  Hypothesis vals_len : forall v, Len64 (val_of v).
  Hypothesis eps_u64 : forall v, ep_of v < 2 ^ 64.
  (* honestly maintained tree: a leaf sitting at a fresh label of l is the prescribed one, and every
     superseded version has been retired *)
  Hypothesis tree_fresh : forall y v, v < 2 ^ 64 -> In y (leaves t) -> lf_label y = nlabel_of true v ->
    1 <= v /\ v <= n /\ lf_value y = fresh_value cfg ck (nlabel_of true v) v (val_of v) /\ lf_epoch y = ep_of v.
  Hypothesis tree_stale : forall v, 1 <= v -> v < n -> In (nlabel_of false v) (map lf_label (leaves t)).

  Definition lp_ok (p : lookup_proof) : Prop :=
    mp_ok (lp_existence p) /\ mp_ok (lp_marker p) /\ nmp_ok (lp_freshness p) /\
    Len64 (lp_value p) /\ Len64 (lp_nonce p) /\ lp_epoch p < 2 ^ 64 /\ lp_version p < 2 ^ 64.

  Hypothesis nonce_len : forall v, Len64 (c_commitment_nonce cfg ck (nl_to_bytes (nlabel_of true v)) v (val_of v)).

  Notation root := (root_hash cfg true t).

  (* what ties a verified chain to the tree, and what ties a verified value to the true history *)
  Collection Chain := B t_ok t_wf nlabel_full vrf_unique.
  Collection Val := Chain vals_len eps_u64 tree_fresh nonce_len.

  Lemma verify_label_label fresh v proof nl : v < 2 ^ 64 ->
    verify_label cfg vrf_check pk l fresh v proof nl = true -> nl = nlabel_of fresh v.
  Proof using vrf_unique.
    intros Hv64. unfold verify_label.
    destruct (vrf_check pk proof (label_input_hash cfg l fresh v)) as [out|] eqn:E; [|discriminate].
    intros H. apply nl_eqb_eq in H. rewrite <- H. now apply vrf_unique in E.
  Qed.

  Lemma chain_leaf fresh v vp mp : v < 2 ^ 64 -> mp_ok mp ->
    verify_existence cfg vrf_check pk root l fresh v vp mp = true ->
    (exists c e, In (LF (nlabel_of fresh v) c e) (leaves t) /\ mp_hash_val mp = c_leaf_hash cfg c e /\ D32 c) \/ Bad.
  Proof using Chain.
    intros Hv64 Hmp H. unfold verify_existence in H. apply andb_true_iff in H. destruct H as [Hl Hm].
    apply verify_label_label in Hl; [|exact Hv64].
    destruct (wf_root_shape t t_wf) as [Hr Hlf].
    destruct (mem_sound_b cfg Bad B t mp t_ok Hr Hlf Hmp Hm) as [Ho|]; [|now right].
    destruct (nlabel_full fresh v) as (F1 & F2 & F3).
    destruct Ho as [A HA HlA HvA|l0 le mde a b HS H1 H2 HlE HvE].
    2:{ (* the empty slot carries the (non-canonical) empty label, a VRF label is canonical *)
      apply (b_lvalue_inj _ _ B) in HlE; [|rewrite Hl; exact F3|apply (b_empty_label_LW _ _ B)].
      destruct HlE as [HlE|]; [|now right]. exfalso.
      pose proof (full_label_canonical _ F2 F1) as Hc. rewrite <- Hl, HlE, (b_empty_label_not_canonical _ _ B) in Hc. discriminate. }
    pose proof (Sub_ok A t HA t_ok) as HokA.
    apply (b_lvalue_inj _ _ B) in HlA; [|rewrite Hl; exact F3 | exact (tree_ok_label A HokA)].
    destruct HlA as [HlA|]; [|now right]. rewrite Hl in HlA.
    destruct (full_label_is_leaf t A t_wf HA ltac:(rewrite <- HlA; exact F1)) as (c & e & EA). rewrite <- HlA in EA. subst A.
    left. exists c, e. split; [apply (Sub_leaves_in _ _ HA); left; reflexivity|]. split; [exact HvA | apply HokA].
  Qed.

  Lemma absent_label fresh v vp np : v < 2 ^ 64 -> nmp_ok np ->
    verify_nonexistence cfg vrf_check pk root l fresh v vp np = true ->
    ~ In (nlabel_of fresh v) (map lf_label (leaves t)) \/ Bad.
  Proof using Chain.
    intros Hv64 Hok H. unfold verify_nonexistence in H. apply andb_true_iff in H. destruct H as [Hl Hn].
    apply verify_label_label in Hl; [|exact Hv64]. rewrite <- Hl.
    apply (nonmem_sound_b cfg Bad B t np t_ok t_wf Hok); [rewrite Hl; apply nlabel_full | exact Hn].
  Qed.

  Lemma existence_with_val_sound value epoch nonce v vp mp :
    mp_ok mp -> Len64 value -> Len64 nonce -> epoch < 2 ^ 64 -> v < 2 ^ 64 ->
    verify_existence_with_val cfg vrf_check pk root l value epoch nonce true v vp mp = true ->
    (1 <= v /\ v <= n /\ value = val_of v /\ epoch = ep_of v) \/ Bad.
  Proof using Val.
    intros Hmp Lv Ln He Hv64 H. unfold verify_existence_with_val in H. apply andb_true_iff in H. destruct H as [Hh H].
    apply bytes_eqb_eq in Hh.
    destruct (chain_leaf true v vp mp Hv64 Hmp H) as [(c & e & Hin & Hv & Dc)|]; [|now right].
    destruct (tree_fresh _ v Hv64 Hin eq_refl) as (V1 & V2 & V3 & V4). cbn [lf_value lf_epoch] in V3, V4. subst c e.
    rewrite <- Hh in Hv. unfold leaf_hash_with_value, fresh_value in Hv.
    apply (b_leaf_inj _ _ B) in Hv; [|apply (b_commit_D32 _ _ B) | apply (b_commit_D32 _ _ B) | exact He | apply eps_u64].
    destruct Hv as [[Hc Hee]|]; [|now right].
    apply (b_commit_inj _ _ B) in Hc; [|exact Lv | exact Ln | apply vals_len | apply nonce_len].
    destruct Hc as [[Hval _]|]; [|now right]. left. auto.
  Qed.

  (* C06: an accepted lookup proof reports exactly the label's latest version, value and epoch *)
  Theorem lookup_sound E p r : lp_ok p ->
    lookup_verify cfg vrf_check pk (root_hash cfg true t) E l p = Some r ->
    (r_version r = n /\ r_value r = val_of n /\ r_epoch r = ep_of n) \/ Bad.
  Proof using Val tree_stale.
    intros (P1 & P2 & P3 & P4 & P5 & P6 & P7) H.
    destruct (lookup_verify_inv _ _ _ _ _ _ _ _ H) as (-> & _ & H0 & Ex & _ & En). cbn [r_version r_value r_epoch].
    apply existence_with_val_sound in Ex; auto. destruct Ex as [(V1 & V2 & V3 & V4)|]; [|now right].
    (* the freshness proof shows the stale label of this version absent: it must be the latest *)
    destruct (absent_label false _ _ _ P7 P3 En) as [Hn|]; [|now right].
    destruct (N.eq_dec (lp_version p) n) as [Heq|Hne].
    - left. rewrite Heq in *. auto.
    - exfalso. apply Hn, tree_stale; [exact V1 | clear - V2 Hne; lia].
  Qed.

  Hypothesis tree_has_fresh : forall v, 1 <= v -> v <= n -> In (nlabel_of true v) (map lf_label (leaves t)).

  Definition up_ok (u : update_proof) : Prop :=
    mp_ok (up_existence u) /\ Len64 (up_value u) /\ Len64 (up_nonce u) /\ up_epoch u < 2 ^ 64 /\ up_version u < 2 ^ 64.
  Definition hp_ok (p : history_proof) : Prop :=
    Forall up_ok (hp_updates p) /\ Forall nmp_ok (hp_future p).

  Definition true_entry (v : N) : verify_result := VRes (ep_of v) v (val_of v).

  Definition update_true (R : verify_result -> verify_result -> Prop) (u : update_proof) : Prop :=
    R (entry_of u) (true_entry (up_version u)) /\ 1 <= up_version u /\ up_version u <= n.

  Lemma single_update_sound u : up_ok u ->
    verify_single_update cfg vrf_check pk root l false u = Some (entry_of u) -> update_true eq u \/ Bad.
  Proof using Val.
    intros (U1 & U2 & U3 & U4 & U6) H. destruct (verify_single_update_inv _ _ _ _ _ _ _ _ H) as (_ & Ex & _). cbn [andb] in Ex.
    apply existence_with_val_sound in Ex; auto. destruct Ex as [(V1 & V2 & V3 & V4)|]; [|now right].
    left. split; [|split; assumption]. unfold entry_of, true_entry. congruence.
  Qed.

  Lemma updates_true R am us prev rs :
    (forall u, In u us -> verify_single_update cfg vrf_check pk root l am u = Some (entry_of u) -> update_true R u \/ Bad) ->
    verify_updates cfg vrf_check pk root l am prev us = Some rs ->
    (rs = map entry_of us /\ forall u, In u us -> update_true R u) \/ Bad.
  Proof using Type.
    intros Hs H. destruct (verify_updates_each _ _ _ _ _ _ _ _ _ H) as [-> Hall].
    destruct (forall_or_bad (update_true R) Bad us (fun u Hu => Hs u Hu (Hall u Hu))) as [F|]; [|now right]. left. auto.
  Qed.

  Lemma updates_sound us : forall prev rs, Forall up_ok us ->
    verify_updates cfg vrf_check pk (root_hash cfg true t) l false prev us = Some rs ->
    (rs = map (fun u => true_entry (up_version u)) us /\ forall u, In u us -> 1 <= up_version u /\ up_version u <= n) \/ Bad.
  Proof using Val.
    intros prev rs Hok H. rewrite Forall_forall in Hok.
    destruct (updates_true eq false us prev rs (fun u Hu => single_update_sound u (Hok u Hu)) H) as [[-> F]|]; [|now right].
    left. split; [apply map_ext_in; intros u Hu; apply (F u Hu) | intros u Hu; apply (F u Hu)].
  Qed.

  Lemma fold_max_ge vs : forall a, a <= fold_left N.max vs a /\ forall v, In v vs -> v <= fold_left N.max vs a.
  Proof using nlabel_full vrf_unique vals_len eps_u64 tree_fresh nonce_len tree_has_fresh.
    induction vs as [|x vs IH]; intros a; cbn [fold_left]; [split; [apply N.le_refl | intros v []]|].
    destruct (IH (N.max a x)) as [I1 I2]. split; [exact (N.le_trans _ _ _ (N.le_max_l a x) I1)|].
    intros v [<-|Hv]; [exact (N.le_trans _ _ _ (N.le_max_r a x) I1) | exact (I2 v Hv)].
  Qed.

  (* the newest reported version is the latest: otherwise its successor is a future marker shown absent,
     while the tree holds it *)
  Lemma latest_not_hidden E m vps nps : 1 <= m -> m <= n -> n <= E -> E < 2 ^ 64 -> Forall nmp_ok nps ->
    forall3 (fun v vp np => verify_nonexistence cfg vrf_check pk root l true v vp np) (future_of m E) vps nps = true ->
    m = n \/ Bad.
  Proof using Chain tree_has_fresh.
    intros Hm1 Hmn HnE HE Pf Ff. destruct (N.eq_dec m n) as [Heq|Hne]; [now left|].
    assert (Hm : 1 <= m + 1 /\ m + 1 <= n /\ m + 1 <= E /\ m + 1 < 2 ^ 64) by (clear - Hmn Hne HnE HE; lia).
    destruct Hm as (H1 & H2 & H3 & H4).
    assert (Hnext : In (m + 1) (future_of m E)) by (apply MarkerFacts.next_is_future; assumption).
    destruct (forall3_In _ _ _ _ Ff (m + 1) Hnext) as (vp & np & Hnp & Hv).
    destruct (absent_label true _ vp np H4 (proj1 (Forall_forall _ _) Pf np Hnp) Hv) as [Hn|]; [|now right].
    exfalso. apply Hn, tree_has_fresh; assumption.
  Qed.

  Lemma history_versions E p params am rs :
    Forall nmp_ok (hp_future p) -> (forall u, In u (hp_updates p) -> up_version u <= n) -> n <= E -> E < 2 ^ 64 ->
    key_history_verify cfg vrf_check pk root E l p params am = Some rs ->
    (exists k, map up_version (hp_updates p) = countdown n (S k) /\
               N.of_nat (S k) = match params with HComplete => n | HMostRecent r => N.min r n end) \/ Bad.
  Proof using Chain tree_has_fresh.
    intros Pf Hall HnE HE H. destruct (key_history_verify_inv _ _ _ _ _ _ _ _ _ _ H) as (past & future & Sh & _ & _ & Ff).
    destruct (verify_history_shape_sound _ _ _ _ _ Sh) as (m & k & Evs & Hk & HmE & -> & Hpar).
    assert (Hmn : m <= n).
    { assert (Hin : In m (map up_version (hp_updates p))) by (rewrite Evs, countdown_S; now left).
      apply in_map_iff in Hin. destruct Hin as (u & <- & Hu). exact (Hall u Hu). }
    destruct (latest_not_hidden E m _ _ ltac:(clear - Hk; lia) Hmn HnE HE Pf Ff) as [->|]; [|now right].
    left. exists k. split; [exact Evs|]. destruct params as [|r]; [exact Hpar | clear - Hk Hpar; lia].
  Qed.

  Lemma rel_all (R : verify_result -> verify_result -> Prop) us : (forall u, In u us -> update_true R u) ->
    Forall2 R (map entry_of us) (map true_entry (map up_version us)).
  Proof using Type.
    induction us as [|u us IH]; intros F; cbn [map]; constructor; [apply (F u); left; reflexivity|].
    apply IH. intros x Hx. apply F. right. exact Hx.
  Qed.

  (* C07 in general: if every update that passes is reported truthfully up to R, an accepted history is,
     up to R, the true account of the newest versions, newest first *)
  Theorem history_sound_gen (R : verify_result -> verify_result -> Prop) E p params am rs :
    (forall u, In u (hp_updates p) -> verify_single_update cfg vrf_check pk root l am u = Some (entry_of u) -> update_true R u \/ Bad) ->
    Forall nmp_ok (hp_future p) -> n <= E -> E < 2 ^ 64 ->
    key_history_verify cfg vrf_check pk root E l p params am = Some rs ->
    (Forall2 R rs (map true_entry (countdown n (length rs))) /\
     N.of_nat (length rs) = match params with HComplete => n | HMostRecent r => N.min r n end) \/ Bad.
  Proof using Chain tree_has_fresh.
    intros Hs Pf HnE HE H. destruct (key_history_verify_inv _ _ _ _ _ _ _ _ _ _ H) as (_ & _ & _ & Vu & _).
    destruct (updates_true R am _ _ _ Hs Vu) as [[-> F]|]; [|now right].
    destruct (history_versions E p params am _ Pf (fun u Hu => proj2 (proj2 (F u Hu))) HnE HE H) as [(k & Evs & Hk)|]; [|now right].
    left. apply rel_all in F. rewrite Evs in F.
    assert (El : length (map entry_of (hp_updates p)) = S k) by (rewrite map_length, <- (map_length up_version), Evs; apply countdown_length).
    rewrite El. split; assumption.
  Qed.

  (* C07 (Default mode, complete history): an accepted proof yields exactly the true account,
     newest first: nothing hidden, reordered, invented or misdated *)
  Theorem history_complete_sound E p rs : hp_ok p -> 1 <= n -> n <= E -> E < 2 ^ 64 ->
    key_history_verify cfg vrf_check pk (root_hash cfg true t) E l p HComplete false = Some rs ->
    rs = map true_entry (map (fun i => n - N.of_nat i) (seq 0 (N.to_nat n))) \/ Bad.
  Proof using Val tree_has_fresh.
    intros (Pu & Pf) _ HnE HE H. rewrite Forall_forall in Pu.
    destruct (history_sound_gen eq E p HComplete false rs (fun u Hu => single_update_sound u (Pu u Hu)) Pf HnE HE H) as [[F Hl]|]; [|now right].
    left. apply Forall2_eq in F. rewrite F. replace (length rs) with (N.to_nat n) by (clear - Hl; lia). reflexivity.
  Qed.

  (* C07 (Default mode, most recent r entries): an accepted proof yields exactly the newest
     min(r, n) entries of the true account, newest first *)
  Theorem history_recent_sound E p rs r : hp_ok p -> 1 <= n -> n <= E -> E < 2 ^ 64 ->
    key_history_verify cfg vrf_check pk (root_hash cfg true t) E l p (HMostRecent r) false = Some rs ->
    (rs = map true_entry (map (fun i => n - N.of_nat i) (seq 0 (length rs))) /\ N.of_nat (length rs) = N.min r n) \/ Bad.
  Proof using Val tree_has_fresh.
    intros (Pu & Pf) _ HnE HE H. rewrite Forall_forall in Pu.
    destruct (history_sound_gen eq E p (HMostRecent r) false rs (fun u Hu => single_update_sound u (Pu u Hu)) Pf HnE HE H) as [[F Hl]|]; [|now right].
    left. split; [apply Forall2_eq; exact F | exact Hl].
  Qed.

  (* the stale leaf of version v was inserted together with version v+1 and carries its epoch *)
  Hypothesis tree_stale_epoch : forall y v, v < 2 ^ 64 -> In y (leaves t) -> lf_label y = nlabel_of false v ->
    lf_value y = c_stale_value cfg /\ lf_epoch y = ep_of (v + 1).
  Hypothesis stale_D32 : D32 (c_stale_value cfg).
  Hypothesis tree_epochs_u64 : forall y, In y (leaves t) -> lf_epoch y < 2 ^ 64.

  Definition up_ok2 (u : update_proof) : Prop :=
    up_ok u /\ match up_prev u with Some pm => mp_ok pm | None => True end.
  Definition hp_ok2 (p : history_proof) : Prop :=
    Forall up_ok2 (hp_updates p) /\ Forall nmp_ok (hp_future p).

  (* what a client that opted in may be told about version v: the truth, or the tombstone with the
     true epoch - except for version 1, whose epoch nothing binds once the value check is skipped
     (the known finding K2) *)
  Definition amrel (r tr : verify_result) : Prop :=
    r_version r = r_version tr /\
    ((r_value r = r_value tr /\ r_epoch r = r_epoch tr) \/
     (r_value r = GenConsts.TOMBSTONE /\ (r_epoch r = r_epoch tr \/ r_version r = 1))).

  Lemma prev_stale_leaf am u : up_ok2 u -> 1 < up_version u ->
    verify_single_update cfg vrf_check pk root l am u = Some (entry_of u) ->
    (exists c e, In (LF (nlabel_of false (up_version u - 1)) c e) (leaves t) /\ D32 c /\
                 c_leaf_hash cfg (c_stale_value cfg) (up_epoch u) = c_leaf_hash cfg c e) \/ Bad.
  Proof using Chain.
    intros [(_ & _ & _ & _ & U6) U5] Hv H. destruct (verify_single_update_inv _ _ _ _ _ _ _ _ H) as (_ & _ & Hp).
    destruct (Hp Hv) as (pm & pv & Epm & _ & Ec). rewrite Epm in U5.
    unfold verify_existence_with_commitment in Ec. apply andb_true_iff in Ec. destruct Ec as [Hh Ec]. apply bytes_eqb_eq in Hh.
    destruct (chain_leaf false (up_version u - 1) _ _ ltac:(clear - U6; lia) U5 Ec) as [(c & e & Hin & Hval & Dc)|]; [|now right].
    left. exists c, e. rewrite Hh. auto.
  Qed.

  Lemma single_update_sound_am u : up_ok2 u ->
    verify_single_update cfg vrf_check pk root l true u = Some (entry_of u) -> update_true amrel u \/ Bad.
  Proof using Val tree_stale_epoch stale_D32.
    intros U2 H. pose proof U2 as [(U1 & Uv & Un & U4 & U6) _].
    destruct (verify_single_update_inv _ _ _ _ _ _ _ _ H) as (_ & Ex & _). cbn [andb] in Ex.
    destruct (is_tombstone (up_value u)) eqn:Et.
    - (* the value check is skipped: the version exists, and above version 1 the stale leaf binds the epoch *)
      destruct (chain_leaf true (up_version u) _ _ U6 U1 Ex) as [(c & e & Hin & _ & _)|]; [|now right].
      destruct (tree_fresh _ (up_version u) U6 Hin eq_refl) as (V1 & V2 & _ & _).
      apply bytes_eqb_eq in Et.
      destruct (N.leb_spec (up_version u) 1) as [Hv1|Hv1].
      + left. split; [|split; assumption]. split; [reflexivity|]. right. split; [exact Et|]. right. cbn [entry_of r_version]. clear - Hv1 V1. lia.
      + destruct (prev_stale_leaf true u U2 Hv1 H) as [(c2 & e2 & Hin2 & Dc & Hv)|]; [|now right].
        destruct (tree_stale_epoch _ (up_version u - 1) ltac:(clear - U6; lia) Hin2 eq_refl) as [_ Se]. cbn [lf_epoch] in Se.
        apply (b_leaf_inj _ _ B) in Hv; [|exact stale_D32 | exact Dc | exact U4 | rewrite Se; apply eps_u64].
        destruct Hv as [[_ Hee]|]; [|now right].
        left. split; [|split; assumption]. split; [reflexivity|]. right. split; [exact Et|]. left.
        cbn [entry_of r_epoch true_entry]. rewrite Hee, Se. f_equal. clear - Hv1. lia.
    - apply existence_with_val_sound in Ex; auto. destruct Ex as [(V1 & V2 & V3 & V4)|]; [|now right].
      left. split; [|split; assumption]. split; [reflexivity|]. left. cbn [entry_of r_value r_epoch true_entry]. split; assumption.
  Qed.

  Theorem history_complete_sound_am E p rs : hp_ok2 p -> 1 <= n -> n <= E -> E < 2 ^ 64 ->
    key_history_verify cfg vrf_check pk (root_hash cfg true t) E l p HComplete true = Some rs ->
    Forall2 amrel rs (map true_entry (map (fun i => n - N.of_nat i) (seq 0 (N.to_nat n)))) \/ Bad.
  Proof using Val tree_has_fresh tree_stale_epoch stale_D32 tree_epochs_u64.
    intros (Pu & Pf) _ HnE HE H. rewrite Forall_forall in Pu.
    destruct (history_sound_gen amrel E p HComplete true rs (fun u Hu => single_update_sound_am u (Pu u Hu)) Pf HnE HE H) as [[F Hl]|]; [|now right].
    left. replace (N.to_nat n) with (length rs) by (clear - Hl; lia). exact F.
  Qed.

  Theorem history_recent_sound_am E p rs r : hp_ok2 p -> 1 <= n -> n <= E -> E < 2 ^ 64 ->
    key_history_verify cfg vrf_check pk (root_hash cfg true t) E l p (HMostRecent r) true = Some rs ->
    (Forall2 amrel rs (map true_entry (map (fun i => n - N.of_nat i) (seq 0 (length rs)))) /\ N.of_nat (length rs) = N.min r n) \/ Bad.
  Proof using Val tree_has_fresh tree_stale_epoch stale_D32 tree_epochs_u64.
    intros (Pu & Pf) _ HnE HE H. rewrite Forall_forall in Pu.
    exact (history_sound_gen amrel E p (HMostRecent r) true rs (fun u Hu => single_update_sound_am u (Pu u Hu)) Pf HnE HE H).
  Qed.

  Lemma single_update_needs_stale u : up_ok2 u ->
    verify_single_update cfg vrf_check pk root l false u = Some (entry_of u) ->
    (1 < up_version u -> In (LF (nlabel_of false (up_version u - 1)) (c_stale_value cfg) (ep_of (up_version u))) (leaves t)) \/ Bad.
  Proof using Val stale_D32 tree_epochs_u64.
    intros U2 H. destruct (N.lt_ge_cases 1 (up_version u)) as [Hv|Hv]; [|left; intros Hv'; apply N.lt_nge in Hv'; contradiction].
    destruct (single_update_sound u (proj1 U2) H) as [([= He _] & _)|]; [|now right].
    destruct (prev_stale_leaf false u U2 Hv H) as [(c & e & Hin & Dc & Hh)|]; [|now right].
    apply (b_leaf_inj _ _ B) in Hh; [|exact stale_D32 | exact Dc | apply U2 | exact (tree_epochs_u64 _ Hin)].
    destruct Hh as [[<- <-]|]; [|now right]. left. intros _. rewrite <- He. exact Hin.
  Qed.

  (* C07, second sentence: if a COMPLETE history verifies in Default mode, then for every version
     v >= 2 the tree holds the stale leaf of v-1 stamped with the epoch of v.  Contrapositive: on a
     tree that retired a superseded version late or never, history verification fails. *)
  Theorem history_needs_timely_stale E p rs : hp_ok2 p -> 1 <= n -> n <= E -> E < 2 ^ 64 ->
    key_history_verify cfg vrf_check pk (root_hash cfg true t) E l p HComplete false = Some rs ->
    (forall v, 2 <= v -> v <= n -> In (LF (nlabel_of false (v - 1)) (c_stale_value cfg) (ep_of v)) (leaves t)) \/ Bad.
  Proof using Val tree_has_fresh stale_D32 tree_epochs_u64.
    intros [Pu Pf] _ HnE HE H. rewrite Forall_forall in Pu.
    destruct (key_history_verify_inv _ _ _ _ _ _ _ _ _ _ H) as (_ & _ & _ & Vu & _).
    destruct (verify_updates_each _ _ _ _ _ _ _ _ _ Vu) as [_ Hall].
    destruct (updates_true eq false _ _ _ (fun u Hu => single_update_sound u (proj1 (Pu u Hu))) Vu) as [[_ F]|]; [|now right].
    destruct (history_versions E p HComplete false rs Pf (fun u Hu => proj2 (proj2 (F u Hu))) HnE HE H) as [(k & Evs & Hk)|]; [|now right].
    destruct (forall_or_bad _ Bad _ (fun u Hu => single_update_needs_stale u (Pu u Hu) (Hall u Hu))) as [G|]; [|now right].
    left. intros v Hv2 Hvn.
    assert (Hin : In v (map up_version (hp_updates p))) by (rewrite Evs; apply in_countdown; clear - Hk Hv2 Hvn; lia).
    apply in_map_iff in Hin. destruct Hin as (u & <- & Hu). apply (G u Hu). clear - Hv2. lia.
  Qed.

End LookupSound.

Lemma amrel_spelled r tr : amrel r tr <->
  r_version r = r_version tr /\
  ((r_value r = r_value tr /\ r_epoch r = r_epoch tr) \/
   (r_value r = GenConsts.TOMBSTONE /\ (r_epoch r = r_epoch tr \/ r_version r = 1))).
Proof. reflexivity. Qed.

Lemma stale_value_digest (H : bytes -> bytes) : (forall x, length (H x) = 32%nat) ->
  forall domain, D32 (c_stale_value (whatsapp H)) /\ D32 (c_stale_value (experimental H domain)).
Proof. intros HL domain. split; [apply HL | reflexivity]. Qed.

Lemma nonce_len_real (H : bytes -> bytes) : (forall x, length (H x) = 32%nat) ->
  forall domain key lb ver value,
    Len64 (c_commitment_nonce (whatsapp H) key lb ver value) /\ Len64 (c_commitment_nonce (experimental H domain) key lb ver value).
Proof.
  intros HL domain key lb ver value. unfold Len64. cbn [c_commitment_nonce whatsapp experimental]. rewrite !HL.
  assert (N.of_nat 32 < 2 ^ 64) by (vm_compute; reflexivity). split; assumption.
Qed.
