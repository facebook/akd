(* What a read through the cache may return while writes are going on (C16, concurrent case).

   The protocol model of CacheProto.v (TicketLocked = the code) is run together with a ghost state
   that records, for every read, its ADMISSIBLE values:
     - when the read starts: the value of the last completed write and the data layer's value at
       that moment (they differ only while a write is between its data-layer step and its end);
     - while the read is active: every value a writer puts into the data layer.
   Theorem: under every schedule every finished read has returned one of its admissible values -
   reads through the cache are REGULAR: they return what the data layer held when the read started
   (up to a write in progress then) or what a write overlapping the read stored.  The ghost state
   does not influence the run ([grun_projects]). *)
From Coq Require Import List Arith Lia Bool.
From Akd Require Import ListFacts CacheProto.
Import ListNotations.

Record ghost := G { g_stable : nat; g_adm : nat -> list nat }.

Definition active (r : rpc) : bool := match r with RS | RDone _ => false | _ => true end.

Definition gstep (x : pstate * ghost) (a : paction) : pstate * ghost :=
  let '(s, g) := x in
  let s' := pstep TicketLocked s a in
  match a with
  | AR i =>
    match nth_error (p_readers s) i with
    | Some RS => (s', G (g_stable g) (fun k => if Nat.eqb k i then [g_stable g; p_db s] else g_adm g k))
    | _ => (s', g)
    end
  | AW j =>
    match nth_error (p_writers s) j with
    | Some (W1 v) =>
      (s', G (g_stable g) (fun k => match nth_error (p_readers s) k with
                                     | Some r => if active r then v :: g_adm g k else g_adm g k
                                     | None => g_adm g k
                                     end))
    | Some W3 => (s', G (p_db s) (g_adm g))
    | _ => (s', g)
    end
  | AE => (s', g)
  end.

(* readers that do not consult the cache start active: admissible = the initial value *)
Definition ginit (d : nat) (rs : list bool) (ws : list nat) : pstate * ghost :=
  (pinit d rs ws, G d (fun _ => [d])).
Definition grun (x : pstate * ghost) (sched : list paction) : pstate * ghost := fold_left gstep sched x.

Lemma gstep_fst x a : fst (gstep x a) = pstep TicketLocked (fst x) a.
Proof.
  destruct x as [s g]. unfold gstep. cbn [fst]. destruct a as [i|j|].
  - destruct (nth_error (p_readers s) i) as [[| | | | | |]|]; reflexivity.
  - destruct (nth_error (p_writers s) j) as [[| | | |]|]; reflexivity.
  - reflexivity.
Qed.

Theorem grun_projects d rs ws sched : fst (grun (ginit d rs ws) sched) = prun TicketLocked (pinit d rs ws) sched.
Proof. exact (fold_left_proj fst gstep (pstep TicketLocked) gstep_fst sched _). Qed.

Definition settled (w : wpc) : Prop := match w with W2 _ | W3 => False | _ => True end.

Definition adm_ok (s : pstate) (g : ghost) (i : nat) (r : rpc) : Prop :=
  match r with
  | RS => True
  | R0 | R0' _ | R1 _ => In (p_db s) (g_adm g i)
  | R2 _ v | R3 v | RDone v => In v (g_adm g i)
  end.

Record GInv (x : pstate * ghost) : Prop := {
  gi_inv : PInv (fst x);
  gi_stable : Forall settled (p_writers (fst x)) -> g_stable (snd x) = p_db (fst x);
  gi_cache : p_cache (fst x) = None \/ p_cache (fst x) = Some (p_db (fst x)) \/ p_cache (fst x) = Some (g_stable (snd x));
  gi_readers : forall i r, nth_error (p_readers (fst x)) i = Some r -> adm_ok (fst x) (snd x) i r }.

Lemma ginit_inv d rs ws : GInv (ginit d rs ws).
Proof.
  constructor; unfold ginit; cbn [fst snd].
  - apply init_inv.
  - intros _. reflexivity.
  - left. reflexivity.
  - intros i r Hr. unfold pinit in Hr. cbn [p_readers] in Hr. apply nth_error_In in Hr. apply in_map_iff in Hr.
    destruct Hr as ([|] & <- & _); cbn [adm_ok g_adm p_db pinit]; [exact I | left; reflexivity].
Qed.

Lemma in_pupd {A} : forall (l : list A) i x y, In y (pupd l i x) -> y = x \/ In y l.
Proof. intros l i x y. rewrite pupd_eq. apply in_upd_nth. Qed.

(* a read in progress carries the data layer's value until it has read, then the value it read *)
Lemma adm_ok_next s g i r : r <> RS -> adm_ok s g i r -> adm_ok s g i (rnext s r).
Proof. destruct r; cbn [rnext adm_ok]; auto. congruence. Qed.

Lemma reader_gkeeps x i : GInv x -> GInv (gstep x (AR i)).
Proof.
  destruct x as [s g]. intros [HI Hst Hc Hr]. cbn [fst snd] in *.
  pose proof (reader_keeps s i HI) as HI'. unfold gstep. cbn [pstep].
  destruct (nth_error (p_readers s) i) as [r|] eqn:E.
  2:{ rewrite step_reader_none by exact E. now constructor. }
  pose proof (Hr i r E) as Hri.
  pose proof (rfill_ok s r HI (nth_error_Forall _ _ _ _ (i_readers _ HI) E)) as Hf.
  rewrite (step_reader_eq s i r E) in *.
  assert (Hc' : rfill s r = None \/ rfill s r = Some (p_db s) \/ rfill s r = Some (g_stable g))
    by (destruct Hf as [->|[-> _]]; auto).
  destruct r as [| |n|t|t v|v|v].
  1:{ (* the read starts: a hit returns the cache's value, which is the data layer's or the stable one *)
      constructor; cbn [fst snd p_db p_cache p_readers p_writers g_stable g_adm]; auto.
      intros k r Hk. apply nth_error_upd_inv in Hk. destruct Hk as [[-> ->]|[N Hk]].
      - cbn [rnext rfill] in *. destruct (p_cache s) as [c|]; cbn [adm_ok g_adm p_db]; rewrite Nat.eqb_refl; cbn [In].
        + destruct Hc as [Hc|[Hc|Hc]]; [discriminate | injection Hc as ->; auto | injection Hc as ->; auto].
        + auto.
      - specialize (Hr k r Hk). apply Nat.eqb_neq in N.
        destruct r; cbn [adm_ok g_adm p_db] in *; rewrite ?N; exact Hr. }
  all: constructor; cbn [fst snd p_db p_cache p_readers p_writers]; auto;
    intros k r' Hk; apply nth_error_upd_inv in Hk; destruct Hk as [[-> ->]|[N Hk]];
    [apply (adm_ok_next s g); [discriminate | exact Hri] | exact (Hr k r' Hk)].
Qed.

Lemma settled_idle w : wb w = 0 -> settled w.
Proof. destruct w; cbn [wb settled]; auto; discriminate. Qed.

Lemma writer_gkeeps x j : GInv x -> GInv (gstep x (AW j)).
Proof.
  destruct x as [s g]. intros [HI Hst Hc Hr]. cbn [fst snd] in *.
  pose proof (writer_keeps s j HI) as HI'. unfold gstep. cbn [pstep].
  destruct (nth_error (p_writers s) j) as [w|] eqn:E.
  2:{ replace (step_writer s j) with s by (unfold step_writer; now rewrite E). now constructor. }
  pose proof (nth_error_Forall _ _ _ _ (i_writers _ HI) E) as Hok.
  unfold step_writer in *. rewrite E in *.
  destruct w as [v|v|v| |]; cbn [w_ok] in Hok; rewrite ?pupd_eq in *.
  - (* the write starts *)
    destruct (Nat.eqb (p_started s) (p_completed s)); [|now constructor].
    constructor; cbn [fst snd p_writers p_db p_cache p_readers]; [exact HI' | | exact Hc | exact Hr].
    intros Hall. apply Hst. exact (Forall_upd_back settled _ j _ (W0 v) E I Hall).
  - (* the data layer is written; until now it held the stable value, every other writer being idle *)
    assert (Hold : g_stable g = p_db s).
    { apply Hst. rewrite <- (upd_nth_id _ _ _ E).
      apply (Forall_upd_counted wb settled _ j (W1 v)); [apply (i_one _ HI) | exact E | auto | exact settled_idle | exact I]. }
    constructor; cbn [fst snd p_writers p_db p_cache p_readers g_stable g_adm].
    + exact HI'.
    + intros Hall. destruct (nth_error_Forall _ _ _ _ Hall (nth_error_upd_same _ _ _ _ E)).
    + destruct Hok as [Hn|Hs]; [left; exact Hn | right; right; rewrite Hs, Hold; reflexivity].
    + intros k r Hk. specialize (Hr k r Hk).
      destruct r; cbn [adm_ok g_adm p_db] in *; try exact I; rewrite Hk; cbn [active In]; auto.
  - (* write-through *)
    constructor; cbn [fst snd p_writers p_db p_cache p_readers g_stable g_adm].
    + exact HI'.
    + intros Hall. destruct (nth_error_Forall _ _ _ _ Hall (nth_error_upd_same _ _ _ _ E)).
    + right. left. rewrite Hok. reflexivity.
    + exact Hr.
  - (* the write ends: what it wrote is now the stable value *)
    constructor; cbn [fst snd p_writers p_db p_cache p_readers g_stable g_adm].
    + exact HI'.
    + intros _. reflexivity.
    + destruct Hok as [Hs|Hn]; [right; left; exact Hs | left; exact Hn].
    + exact Hr.
  - now constructor.
Qed.

Lemma evict_gkeeps x : GInv x -> GInv (gstep x AE).
Proof.
  destruct x as [s g]. intros [HI Hst Hc Hr]. cbn [fst snd] in *.
  unfold gstep. cbn [pstep]. constructor; cbn [fst snd evict_cache p_db p_cache p_readers p_writers]; auto.
  apply evict_keeps. exact HI.
Qed.

Theorem reads_are_regular d rs ws sched :
  let x := grun (ginit d rs ws) sched in
  forall i v, nth_error (p_readers (fst x)) i = Some (RDone v) -> In v (g_adm (snd x) i).
Proof.
  intros x i v. apply (gi_readers x). apply (fold_left_inv GInv); [|apply ginit_inv].
  intros y a. destruct a; [apply reader_gkeeps | apply writer_gkeeps | apply evict_gkeeps].
Qed.

(* what the admissible values are, spelled out on an example: a read that starts while a write is
   between its data-layer step and its cache update may return the old value (from the cache) *)
Example regular_example :
  let x := grun (ginit 1 [true; true] [5])
                [AR 0; AR 0; AR 0; AR 0; AR 0;     (* read 0 alone: misses, reads 1, fills the cache *)
                 AW 0; AW 0;                       (* the write of 5 has reached the data layer, not yet the cache *)
                 AR 1;                             (* read 1 starts now and is served the old value by the cache *)
                 AW 0; AW 0] in
  returned (fst x) = [Some 1; Some 1] /\ g_adm (snd x) 1 = [1; 5] /\ p_db (fst x) = 5 /\ p_cache (fst x) = Some 5.
Proof. vm_compute. repeat split. Qed.
