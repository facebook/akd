(* C03: every tree-related part of the history proof an honest directory returns verifies against
   the returned root hash: existence / previous-version / past-marker membership proofs, and the
   non-membership proofs of the future markers (versions above the latest one do not exist). *)
From Coq Require Import List NArith.
From Akd Require Import NodeLabel NodeLabelFacts Hashing Tree TreeComplete MarkerFacts MarkerBounds Directory DirFacts DirRefine.
Import ListNotations.
Open Scope N_scope.

Section Hist.
  Variable cfg : config.
  Variable ck : bytes.
  Variable vrf_label : bytes -> bool -> N -> option nlabel.
  Variable vrf_proof : bytes -> bool -> N -> option bytes.
  Hypothesis Ce : canonical (c_empty_label cfg) = false.
  Hypothesis vrf_good : forall l f v nl, vrf_label l f v = Some nl -> WF nl /\ canonical nl = true /\ llen nl = 256.
  Hypothesis vrf_inj : forall l f v l' f' v' nl, vrf_label l f v = Some nl -> vrf_label l' f' v' = Some nl -> l = l' /\ f = f' /\ v = v'.

  Lemma user_history_head st l d0 r :
    DirInv vrf_label st -> user_history (d_states st) l (d_epoch st) = d0 :: r ->
    latest_state (d_states st) l (d_epoch st) = Some d0.
  Proof using Type. intros I. apply latest_is_head. exact (di_distinct vrf_label st I). Qed.

  Lemma fold_max_bounds : forall (vs : list N) init B,
    init <= B -> (forall x, In x vs -> x <= B) ->
    init <= fold_left N.max vs init /\ fold_left N.max vs init <= B.
  Proof using Type.
    induction vs as [|x vs IH]; intros init B Hi Hd; cbn [fold_left]; [split; [apply N.le_refl | exact Hi]|].
    pose proof (Hd x (or_introl eq_refl)) as Hx.
    destruct (IH (N.max init x) B (N.max_lub _ _ _ Hi Hx) (fun y Hy => Hd y (or_intror Hy))) as [I1 I2].
    split; [exact (N.le_trans _ _ _ (N.le_max_l init x) I1) | exact I2].
  Qed.

  Theorem history_tree_parts_verify st l params p eh :
    DirInv vrf_label st -> key_history cfg ck vrf_label vrf_proof st l params = DOk (p, eh) ->
    eh = epoch_hash cfg st /\
    Forall (fun u => verify_membership cfg (snd eh) (up_existence u) = true /\
                     match up_prev u with Some m => verify_membership cfg (snd eh) m = true | None => True end) (hp_updates p) /\
    Forall (fun m => verify_membership cfg (snd eh) m = true) (hp_past p) /\
    Forall (fun m => verify_nonmembership cfg (snd eh) m = true) (hp_future p).
  Proof.
    intros I H. destruct (dir_root_shape vrf_label st I) as [Hr Hl].
    destruct (key_history_inv _ _ _ _ _ _ _ _ _ H)
      as (d0 & rest & sv & ev & past & future & ups & pvp & pls & fvp & fls & Ed & _ & _ & Ee & He & Em & Eu & _ & _ & _ & Ef & -> & ->).
    cbn [hp_updates hp_past hp_future snd epoch_hash]. split; [reflexivity|]. split; [|split]; apply Forall_forall.
    - intros u Hu. destruct (all_some_in _ _ _ Eu u Hu) as (x & _ & Hx).
      destruct (single_update_proof_inv _ _ _ _ _ _ _ _ Hx) as (el & ep & _ & _ & _ & _ & _ & _ & -> & _ & Hp).
      split; [apply gen_membership_verifies; assumption|].
      destruct (1 <? vr_version x); [destruct Hp as (pl & pp & _ & _ & _ & ->); apply gen_membership_verifies; assumption | destruct Hp as [_ ->]; exact Logic.I].
    - intros m Hm. apply in_map_iff in Hm. destruct Hm as (nl & <- & _). apply gen_membership_verifies; assumption.
    - (* a future marker lies above the newest requested version, which is the label's latest *)
      intros m Hm. apply in_map_iff in Hm. destruct Hm as (nl & <- & Hnl).
      destruct (all_some_in _ _ _ Ef nl Hnl) as (mv & Hmv & Hlab).
      set (all := user_history (d_states st) l (d_epoch st)) in *.
      assert (Hsub : forall x, In x (d0 :: rest) -> In x all) by (rewrite <- Ed; destruct params; intros x; [auto | apply in_firstn]).
      assert (Hall : exists r', all = d0 :: r').
      { destruct params as [|k]; [eauto|]. destruct all as [|a0 r0]; [rewrite firstn_nil in Ed; discriminate|].
        destruct (N.to_nat k); [discriminate|]. injection Ed as -> _. eauto. }
      destruct Hall as [r' Hall]. pose proof (user_history_head st l d0 r' I Hall) as Hlatest.
      assert (Hdata : forall v, In v (map vr_version (d0 :: rest)) -> v <= d_epoch st).
      { intros v Hv. apply in_map_iff in Hv. destruct Hv as (x & <- & Hx). apply Hsub, in_user_history in Hx.
        exact (version_le_epoch vrf_label st x I (proj1 Hx)). }
      rewrite Ed in Ee.
      destruct (fold_max_bounds _ (vr_version d0) (d_epoch st) (Hdata _ (or_introl eq_refl)) Hdata) as [B1 B2]. rewrite <- Ee in B1, B2.
      destruct (get_marker_versions_future sv ev (d_epoch st) past future He B2 Em mv Hmv) as [Hgt _].
      apply (absent_label_nonmember cfg vrf_label Ce vrf_good vrf_inj st l true mv nl I Hlab).
      rewrite (ver_latest st l d0 Hlatest). exact (N.le_lt_trans _ _ _ B1 Hgt).
  Qed.
End Hist.
