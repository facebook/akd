(* Agreement of the byte-level label operations with their bit-string meaning (C17). *)
From Coq Require Import List Bool Arith NArith ZArith Lia ZifyBool ZifyNat ZifyN.
From Akd Require Export ListFacts.
From Akd Require Import Bits NodeLabel LabelOrder.
Import ListNotations.
Open Scope N_scope.
Ltac Zify.zify_post_hook ::= Z.div_mod_to_equations.

Arguments N.add : simpl never.
Arguments N.sub : simpl never.
Arguments N.mul : simpl never.
Arguments N.div : simpl never.
Arguments N.modulo : simpl never.
Arguments N.shiftl : simpl never.
Arguments N.shiftr : simpl never.
Arguments N.land : simpl never.
Arguments N.testbit : simpl never.
Arguments N.of_nat : simpl never.
Arguments N.to_nat : simpl never.

Lemma length_byte_bits b : length (byte_bits b) = 8%nat.
Proof. reflexivity. Qed.

Lemma length_val_bits v : length (val_bits v) = (8 * length v)%nat.
Proof. apply length_flat_map_const. exact length_byte_bits. Qed.

Lemma nth_byte_bits b r : (r < 8)%nat -> nth r (byte_bits b) false = N.testbit b (7 - N.of_nat r).
Proof.
  intros Hr. unfold byte_bits.
  do 8 (destruct r as [|r]; [reflexivity|]). lia.
Qed.

Lemma nth_val_bits v i :
  (i < 8 * length v)%nat ->
  nth i (val_bits v) false = N.testbit (byte_at v (i / 8)) (7 - N.of_nat (i mod 8)).
Proof.
  intros Hi. unfold val_bits, byte_at.
  rewrite (nth_flat_map_const byte_bits 8 false 0) by (auto using length_byte_bits; lia).
  apply nth_byte_bits. apply Nat.mod_upper_bound. lia.
Qed.

Lemma land1_testbit x : negb (N.land x 1 =? 0) = N.testbit x 0.
Proof.
  change 1 with (N.ones 1). rewrite N.land_ones. change (2 ^ 1) with 2.
  pose proof (N.bit0_mod x) as H. destruct (N.testbit x 0); simpl in H; rewrite <- H; reflexivity.
Qed.

Lemma gbfs_spec v index :
  index < 8 * N.of_nat (length v) ->
  get_bit_from_slice v index = Some (nth (N.to_nat index) (val_bits v) false).
Proof.
  intros Hi. unfold get_bit_from_slice.
  destruct (N.leb_spec (N.of_nat (length v) * 8) index) as [H|H]; [lia|].
  f_equal. rewrite land1_testbit, N.shiftr_spec', N.add_0_l.
  rewrite nth_val_bits by lia. f_equal.
  - f_equal. change 8%nat with (N.to_nat 8). rewrite <- N2Nat.inj_div. reflexivity.
  - f_equal. change 8%nat with (N.to_nat 8). rewrite <- N2Nat.inj_mod by lia.
    now rewrite N2Nat.id.
Qed.

Definition WF (a : nlabel) : Prop := wf_label a = true.

Lemma WF_parts a : WF a -> length (lval a) = 32%nat /\ llen a <= 256 /\
  (forall i, byte_at (lval a) i < 256).
Proof.
  unfold WF, wf_label, wf_val. rewrite !andb_true_iff. intros [[H1 H2] H3].
  apply Nat.eqb_eq in H1. split; [exact H1|]. split; [lia|].
  intros i. unfold byte_at. destruct (Nat.ltb_spec i (length (lval a))) as [Hi|Hi].
  - rewrite (forallb_nth _ _ 0) in H2. specialize (H2 i Hi). lia.
  - rewrite nth_overflow by exact Hi. lia.
Qed.

Lemma WF_intro a : length (lval a) = 32%nat -> llen a <= 256 -> (forall i, byte_at (lval a) i < 256) -> WF a.
Proof.
  intros H1 H2 H3. unfold WF, wf_label, wf_val. rewrite H1, (proj2 (forallb_nth _ _ 0)).
  - apply N.leb_le in H2. rewrite H2. reflexivity.
  - intros i _. apply N.ltb_lt, H3.
Qed.

Lemma length_bits_of a : WF a -> length (bits_of a) = N.to_nat (llen a).
Proof.
  intros H. destruct (WF_parts a H) as (H1 & H2 & _). unfold bits_of.
  rewrite firstn_length, length_val_bits, H1. lia.
Qed.

Lemma bits_le_256 a : WF a -> (length (bits_of a) <= 256)%nat.
Proof. intros W. rewrite length_bits_of by exact W. destruct (WF_parts a W) as (_ & H & _). lia. Qed.

Lemma full_label_canonical l : WF l -> llen l = 256 -> canonical l = true.
Proof.
  intros H E. destruct (WF_parts l H) as (H1 & _ & _). unfold canonical. rewrite E.
  rewrite skipn_all2; [reflexivity|]. rewrite length_val_bits, H1. reflexivity.
Qed.

Lemma full_label_eta nl : llen nl = 256 -> NL (lval nl) 256 = nl.
Proof. destruct nl as [v n]. cbn. intros ->. reflexivity. Qed.

Lemma canonical_val_bits a : WF a -> canonical a = true ->
  val_bits (lval a) = bits_of a ++ repeat false (256 - N.to_nat (llen a)).
Proof.
  intros Ha Hc. destruct (WF_parts a Ha) as (A1 & _).
  rewrite <- (firstn_skipn (N.to_nat (llen a)) (val_bits (lval a))) at 1. unfold bits_of. f_equal.
  rewrite (forallb_negb_repeat _ Hc), skipn_length, length_val_bits, A1. reflexivity.
Qed.

Lemma bits_of_nil a : llen a = 0 -> bits_of a = [].
Proof. unfold bits_of. intros ->. reflexivity. Qed.

Lemma get_bit_at_spec a i :
  WF a -> i < llen a -> get_bit_at a i = Some (nth (N.to_nat i) (bits_of a) false).
Proof.
  intros H Hi. destruct (WF_parts a H) as (H1 & H2 & _). unfold get_bit_at.
  destruct (N.leb_spec (llen a) i); [lia|]. rewrite gbfs_spec by lia.
  unfold bits_of. rewrite nth_firstn by lia. reflexivity.
Qed.

Lemma get_bit_at_val a i :
  WF a -> i < llen a -> get_bit_at a i = Some (nth (N.to_nat i) (val_bits (lval a)) false).
Proof.
  intros H Hi. rewrite get_bit_at_spec by assumption. unfold bits_of.
  rewrite nth_firstn by lia. reflexivity.
Qed.

Lemma forallb_Nseq p n :
  forallb p (Nseq n) = true <-> forall i, i < n -> p i = true.
Proof.
  unfold Nseq. rewrite forallb_forall. split.
  - intros H i Hi. apply H. apply in_map_iff. exists (N.to_nat i). split; [apply N2Nat.id|].
    apply in_seq. lia.
  - intros H x Hx. apply in_map_iff in Hx. destruct Hx as (k & <- & Hk). apply in_seq in Hk.
    apply H. lia.
Qed.

Theorem is_prefix_of_spec a b :
  WF a -> WF b -> is_prefix_of a b = prefixb (bits_of a) (bits_of b).
Proof.
  intros Ha Hb. unfold is_prefix_of.
  destruct (N.ltb_spec (llen b) (llen a)) as [Hl|Hl].
  - symmetry. apply not_true_is_false. intros H. apply prefixb_length in H.
    rewrite !length_bits_of in H by assumption. lia.
  - apply eq_true_iff_eq. rewrite forallb_Nseq, prefixb_nth, !length_bits_of by assumption.
    split.
    + intros H. split; [lia|]. intros i Hi.
      specialize (H (N.of_nat i) ltac:(lia)).
      rewrite !get_bit_at_spec in H by (assumption || lia). simpl in H.
      rewrite Nat2N.id in H. now apply eqb_prop.
    + intros [_ H] i Hi. rewrite !get_bit_at_spec by (assumption || lia). simpl.
      rewrite (H (N.to_nat i)) by lia. apply eqb_reflx.
Qed.

Lemma testbit_mask b k i :
  N.testbit (N.shiftl (N.shiftr b k) k) i = if i <? k then false else N.testbit b i.
Proof.
  destruct (N.ltb_spec i k) as [H|H].
  - apply N.shiftl_spec_low. exact H.
  - rewrite N.shiftl_spec_high' by exact H. rewrite N.shiftr_spec'. f_equal. lia.
Qed.

Lemma mask_lt b k : b < 256 -> N.shiftl (N.shiftr b k) k < 256.
Proof.
  intros H. rewrite N.shiftl_mul_pow2, N.shiftr_div_pow2.
  assert (2 ^ k <> 0) by (apply N.pow_nonzero; lia).
  pose proof (N.mul_div_le b (2 ^ k) H0). lia.
Qed.

Lemma nth_zeros n i : nth i (zeros n) 0 = 0.
Proof. unfold zeros. destruct (Nat.ltb_spec i n); [apply nth_repeat|]. apply nth_overflow. now rewrite repeat_length. Qed.

Lemma val_bits_zeros_nth n i : nth i (val_bits (zeros n)) false = false.
Proof.
  destruct (Nat.ltb_spec i (8 * length (zeros n))) as [H|H].
  - rewrite nth_val_bits by exact H. unfold byte_at. rewrite nth_zeros. apply N.bits_0.
  - apply nth_overflow. rewrite length_val_bits. exact H.
Qed.

Lemma get_prefix_0 a : get_prefix a 0 = NL (zeros 32) 0.
Proof. reflexivity. Qed.

Lemma get_prefix_len_val a len :
  WF a -> len < 256 -> length (lval (get_prefix a len)) = 32%nat /\ llen (get_prefix a len) = len.
Proof.
  intros Ha H256. destruct (WF_parts a Ha) as (H1 & _). unfold get_prefix.
  destruct (N.leb_spec 256 len); [lia|]. destruct (N.eqb_spec len 0) as [->|Hn]; cbn [lval llen].
  - split; reflexivity.
  - split; [|reflexivity]. rewrite !app_length, firstn_length, H1. unfold zeros.
    rewrite repeat_length. cbn [length]. lia.
Qed.

Lemma get_prefix_byte a len j :
  WF a -> 0 < len -> len < 256 ->
  let d := N.to_nat ((len - 1) / 8) in let k := 7 - (len - 1) mod 8 in
  byte_at (lval (get_prefix a len)) j =
  if (j <? d)%nat then byte_at (lval a) j
  else if (j =? d)%nat then N.shiftl (N.shiftr (byte_at (lval a) d) k) k else 0.
Proof.
  intros Ha H0 H256 d k. destruct (WF_parts a Ha) as (H1 & _). unfold get_prefix.
  destruct (N.leb_spec 256 len); [lia|]. destruct (N.eqb_spec len 0); [lia|]. cbn [lval]. fold d k.
  assert (Hfl : length (firstn d (lval a)) = d) by (rewrite firstn_length; subst d; lia).
  unfold byte_at at 1. destruct (Nat.ltb_spec j d) as [Hlt|Hge].
  - rewrite app_nth1 by lia. apply nth_firstn. exact Hlt.
  - rewrite app_nth2, Hfl by lia. destruct (Nat.eqb_spec j d) as [->|Hne].
    + rewrite Nat.sub_diag. reflexivity.
    + destruct (j - d)%nat as [|m] eqn:E; [lia|]. apply nth_zeros.
Qed.

Lemma get_prefix_wf a len : WF a -> len < 256 -> WF (get_prefix a len).
Proof.
  intros Ha Hl. destruct (WF_parts a Ha) as (_ & _ & H3).
  destruct (get_prefix_len_val a len Ha Hl) as [L1 L2]. apply WF_intro; [exact L1 | lia |].
  intros j. destruct (N.eq_dec len 0) as [->|Hn].
  - rewrite get_prefix_0. unfold byte_at. cbn [lval]. rewrite nth_zeros. lia.
  - rewrite get_prefix_byte by (assumption || lia).
    destruct (j <? _)%nat; [apply H3|]. destruct (j =? _)%nat; [apply mask_lt, H3 | lia].
Qed.

(* bit i of the value lies before the end of a len-bit prefix according to its byte i / 8: an
   earlier byte than that of the last bit, that byte at a position the mask keeps, or a later one *)
Lemma get_prefix_index len i : 0 < len ->
  let d := N.to_nat ((len - 1) / 8) in let k := 7 - (len - 1) mod 8 in
  (i <? N.to_nat len)%nat =
  if (i / 8 <? d)%nat then true else if (i / 8 =? d)%nat then negb (7 - N.of_nat (i mod 8) <? k) else false.
Proof.
  intros H d k. subst d k.
  destruct (Nat.ltb_spec (i / 8) (N.to_nat ((len - 1) / 8))); [lia|].
  destruct (Nat.eqb_spec (i / 8) (N.to_nat ((len - 1) / 8))); lia.
Qed.

Lemma get_prefix_bits_nth a len i :
  WF a -> len < 256 -> (i < 256)%nat ->
  nth i (val_bits (lval (get_prefix a len))) false =
  if (i <? N.to_nat len)%nat then nth i (val_bits (lval a)) false else false.
Proof.
  intros Ha H256 Hi. destruct (WF_parts a Ha) as (H1 & _).
  destruct (get_prefix_len_val a len Ha H256) as [L1 _].
  destruct (N.eq_dec len 0) as [->|Hn].
  - rewrite get_prefix_0. cbn [lval]. rewrite val_bits_zeros_nth. reflexivity.
  - rewrite !nth_val_bits, get_prefix_byte, (get_prefix_index len i) by (assumption || lia).
    destruct (i / 8 <? _)%nat; [reflexivity|]. destruct (Nat.eqb_spec (i / 8) (N.to_nat ((len - 1) / 8))) as [E|E].
    + rewrite testbit_mask, E. destruct (_ <? _); reflexivity.
    + apply N.bits_0.
Qed.

(* C17: prefix extraction *)
Theorem get_prefix_spec a len :
  WF a -> len <= llen a -> len < 256 ->
  bits_of (get_prefix a len) = firstn (N.to_nat len) (bits_of a) /\
  canonical (get_prefix a len) = true /\ llen (get_prefix a len) = len.
Proof.
  intros Ha Hl H256. destruct (WF_parts a Ha) as (H1 & H2 & H3).
  destruct (get_prefix_len_val a len Ha H256) as [L1 L2].
  split; [|split; [|exact L2]].
  - unfold bits_of. rewrite L2. rewrite firstn_firstn. replace (Nat.min (N.to_nat len) (N.to_nat (llen a))) with (N.to_nat len) by lia.
    apply (nth_ext _ _ false false).
    + rewrite !firstn_length, !length_val_bits, L1, H1. reflexivity.
    + intros i Hi. rewrite firstn_length, length_val_bits, L1 in Hi.
      rewrite !nth_firstn, get_prefix_bits_nth by (assumption || lia).
      destruct (Nat.ltb_spec i (N.to_nat len)); [reflexivity|lia].
  - unfold canonical. rewrite L2. apply (forallb_nth _ _ false). intros i Hi.
    rewrite skipn_length, length_val_bits, L1 in Hi.
    rewrite nth_skipn, get_prefix_bits_nth by (assumption || lia).
    destruct (Nat.ltb_spec (N.to_nat len + i) (N.to_nat len)); [lia|reflexivity].
Qed.

Theorem get_prefix_full a len : 256 <= len -> get_prefix a len = a.
Proof. intros H. unfold get_prefix. destruct (N.leb_spec 256 len); [reflexivity|lia]. Qed.

(* also for len = 256 = llen a, where get_prefix is the identity *)
Lemma get_prefix_good a len : WF a -> len <= llen a ->
  WF (get_prefix a len) /\ bits_of (get_prefix a len) = firstn (N.to_nat len) (bits_of a) /\
  (canonical a = true -> canonical (get_prefix a len) = true).
Proof.
  intros Ha Hl. destruct (WF_parts a Ha) as (_ & A2 & _). destruct (N.ltb_spec len 256) as [Hq|Hq].
  - destruct (get_prefix_spec a len Ha Hl Hq) as (P1 & P2 & _). auto using get_prefix_wf.
  - rewrite get_prefix_full by exact Hq.
    rewrite firstn_all2 by (rewrite length_bits_of by assumption; lia). auto.
Qed.

Lemma lcp_loop_spec fuel a b sh p :
  WF a -> WF b -> sh <= llen a -> sh <= llen b -> p <= sh ->
  (N.to_nat (sh - p) < fuel)%nat ->
  let q := lcp_loop fuel a b sh p in
  p <= q /\ q <= sh /\
  (forall i, (N.to_nat p <= i < N.to_nat q)%nat -> nth i (bits_of a) false = nth i (bits_of b) false) /\
  (q = sh \/ nth (N.to_nat q) (bits_of a) false <> nth (N.to_nat q) (bits_of b) false).
Proof.
  intros Ha Hb Hsa Hsb. revert p. induction fuel as [|f IH]; intros p Hp Hf; [lia|].
  cbn [lcp_loop]. destruct (N.ltb_spec p sh) as [Hlt|Hge]; cbn [andb].
  - rewrite !get_bit_at_spec by (assumption || lia). cbn [optb_eqb].
    destruct (Bool.eqb _ _) eqn:E.
    + apply eqb_prop in E. specialize (IH (p + 1) ltac:(lia) ltac:(lia)).
      cbv zeta in IH. destruct IH as (I1 & I2 & I3 & I4).
      split; [lia|]. split; [exact I2|]. split; [|exact I4].
      intros i Hi. destruct (Nat.eq_dec i (N.to_nat p)) as [->|Hne]; [exact E|].
      apply I3. lia.
    + split; [lia|]. split; [lia|]. split; [intros i Hi; lia|].
      right. intros Heq. rewrite Heq, eqb_reflx in E. discriminate.
  - split; [lia|]. split; [lia|]. split; [intros i Hi; lia|]. left. lia.
Qed.

Lemma glcp_spec empty a b : WF a -> WF b -> nl_eqb a empty || nl_eqb b empty = false ->
  let r := get_longest_common_prefix empty a b in
  bits_of r = lcp (bits_of a) (bits_of b) /\ WF r /\ (canonical a = true -> canonical r = true).
Proof.
  intros Ha Hb E. unfold get_longest_common_prefix. rewrite E.
  destruct (WF_parts a Ha) as (_ & A2 & _).
  pose proof (length_bits_of a Ha) as La. pose proof (length_bits_of b Hb) as Lb.
  set (sh := if llen a <? llen b then llen a else llen b).
  assert (Hsh : sh = N.min (llen a) (llen b)) by (subst sh; destruct (N.ltb_spec (llen a) (llen b)); lia).
  clearbody sh. clear E.
  pose proof (lcp_loop_spec 257 a b sh 0 Ha Hb ltac:(lia) ltac:(lia) ltac:(lia) ltac:(lia)) as H.
  cbv zeta in H. set (q := lcp_loop 257 a b sh 0) in *. destruct H as (_ & Q2 & Q3 & Q4).
  assert (Hl : lcp (bits_of a) (bits_of b) = firstn (N.to_nat q) (bits_of a)).
  { apply lcp_firstn; rewrite ?La, ?Lb; [lia | lia | |].
    - intros i Hi. apply Q3. lia.
    - destruct Q4 as [->|Q4]; [lia | tauto]. }
  rewrite Hl. destruct (get_prefix_good a q Ha ltac:(lia)) as (W & B & C). auto.
Qed.

(* C17: longest common prefix.  The configuration's empty label is a special case in the
   code and therefore in the statement. *)
Theorem get_longest_common_prefix_spec empty a b :
  WF a -> WF b ->
  (nl_eqb a empty || nl_eqb b empty = true -> get_longest_common_prefix empty a b = empty) /\
  (nl_eqb a empty || nl_eqb b empty = false ->
     bits_of (get_longest_common_prefix empty a b) = lcp (bits_of a) (bits_of b) /\
     N.to_nat (llen (get_longest_common_prefix empty a b)) = length (lcp (bits_of a) (bits_of b))).
Proof.
  intros Ha Hb. split; intros E.
  - unfold get_longest_common_prefix. rewrite E. reflexivity.
  - destruct (glcp_spec empty a b Ha Hb E) as (B & W & _). split; [exact B|].
    rewrite <- B. symmetry. apply length_bits_of, W.
Qed.

Definition msb_bits (k : nat) (x : N) : list bool :=
  map (fun r => N.testbit x (N.of_nat (k - 1 - r))) (seq 0 k).

Lemma msb_bits_S k x : msb_bits (S k) x = msb_bits k (N.div2 x) ++ [N.odd x].
Proof.
  unfold msb_bits. rewrite seq_S, map_app. cbn [map Nat.add]. f_equal.
  - apply map_ext_in. intros r Hr. apply in_seq in Hr. rewrite N.div2_spec, N.shiftr_spec'. f_equal. lia.
  - rewrite <- N.bit0_odd. do 2 f_equal. lia.
Qed.

Lemma compare_double x y b c :
  (2 * x + N.b2n b ?= 2 * y + N.b2n c) = match x ?= y with Eq => lex_cmp [b] [c] | r => r end.
Proof.
  destruct (N.compare_spec x y) as [->|L|L], b, c; cbn [N.b2n lex_cmp];
    (apply N.compare_eq_iff || apply N.compare_lt_iff || apply N.compare_gt_iff); lia.
Qed.

Lemma compare_msb_bits k : forall x y, x < 2 ^ N.of_nat k -> y < 2 ^ N.of_nat k ->
  (x ?= y) = lex_cmp (msb_bits k x) (msb_bits k y).
Proof.
  induction k as [|k IH]; intros x y Hx Hy.
  - change (2 ^ N.of_nat 0) with 1 in *. replace y with x by lia. apply N.compare_refl.
  - rewrite Nat2N.inj_succ, N.pow_succ_r' in Hx, Hy.
    pose proof (N.div2_odd x) as Ex. pose proof (N.div2_odd y) as Ey.
    rewrite !msb_bits_S, lex_cmp_app by (unfold msb_bits; now rewrite !map_length).
    rewrite <- IH, <- compare_double, <- Ex, <- Ey by lia. reflexivity.
Qed.

Lemma byte_cmp_bits x y : x < 256 -> y < 256 -> (x ?= y) = lex_cmp (byte_bits x) (byte_bits y).
Proof. exact (compare_msb_bits 8 x y). Qed.

Lemma bytes_cmp_bits v w :
  length v = length w -> (forall i, byte_at v i < 256) -> (forall i, byte_at w i < 256) ->
  bytes_cmp v w = lex_cmp (val_bits v) (val_bits w).
Proof.
  revert w; induction v as [|x v IH]; intros [|y w] Hl Hv Hw; simpl in Hl; try lia; [reflexivity|].
  unfold val_bits. cbn [flat_map bytes_cmp]. rewrite lex_cmp_app by reflexivity.
  rewrite <- byte_cmp_bits by (apply (Hv 0%nat) || apply (Hw 0%nat)).
  destruct (x ?= y); auto. apply IH; [lia| |]; intros i; [apply (Hv (S i))|apply (Hw (S i))].
Qed.

Lemma bytes_eqb_eq v w : bytes_eqb v w = true <-> v = w.
Proof.
  revert w; induction v as [|x v IH]; intros [|y w]; simpl; split; try congruence; auto.
  - rewrite andb_true_iff. intros [H1 H2]. apply N.eqb_eq in H1. apply IH in H2. congruence.
  - intros H; inversion H; subst. rewrite N.eqb_refl. simpl. apply IH. reflexivity.
Qed.

Lemma bytes_eqb_refl v : bytes_eqb v v = true.
Proof. apply bytes_eqb_eq. reflexivity. Qed.

Lemma nl_eqb_eq a b : nl_eqb a b = true <-> a = b.
Proof.
  unfold nl_eqb. rewrite andb_true_iff, bytes_eqb_eq, N.eqb_eq. destruct a, b; simpl.
  split; [intros [-> ->]; reflexivity|intros H; inversion H; auto].
Qed.

Lemma nl_eqb_refl a : nl_eqb a a = true.
Proof. apply nl_eqb_eq. reflexivity. Qed.

Lemma nl_eqb_neq a b : a <> b -> nl_eqb a b = false.
Proof. intros H. destruct (nl_eqb a b) eqn:E; [apply nl_eqb_eq in E; contradiction | reflexivity]. Qed.

Lemma glcp_empty_l e b : get_longest_common_prefix e e b = e.
Proof. unfold get_longest_common_prefix. rewrite nl_eqb_refl. reflexivity. Qed.
Lemma glcp_empty_r e a : get_longest_common_prefix e a e = e.
Proof. unfold get_longest_common_prefix. rewrite nl_eqb_refl, orb_true_r. reflexivity. Qed.

Lemma val_bits_inj v w :
  length v = length w -> (forall i, byte_at v i < 256) -> (forall i, byte_at w i < 256) ->
  val_bits v = val_bits w -> v = w.
Proof. intros Hl Hv Hw H. apply bytes_cmp_eq. rewrite bytes_cmp_bits, H by assumption. apply lex_cmp_refl. Qed.

Theorem bits_of_inj a b : WF a -> WF b -> canonical a = true -> canonical b = true ->
  bits_of a = bits_of b -> a = b.
Proof.
  intros Wa Wb Ca Cb E.
  destruct (WF_parts a Wa) as (A1 & _ & A3). destruct (WF_parts b Wb) as (B1 & _ & B3).
  assert (El : llen a = llen b).
  { apply (f_equal (@length bool)) in E. rewrite !length_bits_of in E by assumption. lia. }
  pose proof (canonical_val_bits a Wa Ca) as Va. rewrite E, El, <- (canonical_val_bits b Wb Cb) in Va.
  destruct a as [va la], b as [vb lb]; cbn [lval llen] in *. subst lb. f_equal.
  apply val_bits_inj; [lia | assumption | assumption | exact Va].
Qed.

Lemma get_prefix_eq_iff a b len :
  WF a -> WF b -> len <= llen a -> len <= llen b -> len < 256 ->
  (get_prefix a len = get_prefix b len <->
   firstn (N.to_nat len) (bits_of a) = firstn (N.to_nat len) (bits_of b)).
Proof.
  intros Ha Hb Hla Hlb H256.
  destruct (get_prefix_spec a len Ha Hla H256) as (PA1 & PA2 & _).
  destruct (get_prefix_spec b len Hb Hlb H256) as (PB1 & PB2 & _).
  rewrite <- PA1, <- PB1. split; [intros ->; reflexivity|].
  apply bits_of_inj; auto using get_prefix_wf.
Qed.

Lemma get_prefix_eqb_prefixb a b : WF a -> WF b -> llen a < llen b ->
  nl_eqb (get_prefix b (llen a)) (get_prefix a (llen a)) = prefixb (bits_of a) (bits_of b).
Proof.
  intros Ha Hb Hl. destruct (WF_parts b Hb) as (_ & B2 & _).
  apply eq_true_iff_eq.
  rewrite nl_eqb_eq, get_prefix_eq_iff, prefixb_firstn_iff, length_bits_of by (assumption || lia).
  rewrite (firstn_all2 (bits_of a)) by (rewrite length_bits_of by assumption; lia). reflexivity.
Qed.

(* C17: child direction *)
Theorem get_prefix_ordering_spec a b :
  WF a -> WF b -> get_prefix_ordering a b = pord (bits_of a) (bits_of b).
Proof.
  intros Ha Hb. unfold get_prefix_ordering, pord. rewrite !length_bits_of by assumption.
  destruct (N.leb_spec (llen b) (llen a)) as [Hl|Hl];
    destruct (Nat.leb_spec (N.to_nat (llen b)) (N.to_nat (llen a))) as [Hl'|Hl']; try lia; [reflexivity|].
  rewrite get_prefix_eqb_prefixb by assumption.
  destruct (prefixb _ _); [apply get_bit_at_spec; assumption | reflexivity].
Qed.

(* the test of a walk for going on into a child labelled l: x is l or lies below l *)
Lemma descend_test l x : WF l -> canonical l = true -> WF x -> canonical x = true ->
  nl_eqb x l || match get_prefix_ordering l x with Some _ => true | None => false end = prefixb (bits_of l) (bits_of x).
Proof.
  intros Wl Cl Wx Cx. rewrite (get_prefix_ordering_spec _ _ Wl Wx). destruct (pord (bits_of l) (bits_of x)) eqn:P.
  - rewrite (prefixb_app_l _ _ _ (pord_prefix _ _ _ P)). apply orb_true_r.
  - rewrite orb_false_r. destruct (prefixb (bits_of l) (bits_of x)) eqn:E.
    + rewrite (bits_of_inj _ _ Wx Wl Cx Cl (pord_None_prefix _ _ E P)). apply nl_eqb_refl.
    + apply nl_eqb_neq. intros ->. rewrite prefixb_refl in E. discriminate.
Qed.

(* C17: ordering = shortlex on the bit strings (canonical labels) *)
Theorem nl_cmp_spec a b :
  WF a -> WF b -> canonical a = true -> canonical b = true ->
  nl_cmp a b = shortlex_cmp (bits_of a) (bits_of b).
Proof.
  intros Ha Hb Ca Cb. destruct (WF_parts a Ha) as (A1 & A2 & A3). destruct (WF_parts b Hb) as (B1 & B2 & B3).
  unfold nl_cmp, shortlex_cmp. rewrite !length_bits_of by assumption.
  rewrite <- N2Nat.inj_compare. destruct (llen a ?= llen b) eqn:E; try reflexivity.
  apply N.compare_eq in E. rewrite bytes_cmp_bits by (assumption || lia).
  rewrite (canonical_val_bits a Ha Ca), (canonical_val_bits b Hb Cb), E.
  rewrite lex_cmp_app by (rewrite !length_bits_of by assumption; lia).
  destruct (lex_cmp (bits_of a) (bits_of b)); try reflexivity.
  apply lex_cmp_refl.
Qed.

Lemma nl_of_bits_sweep_ok : True. Proof. exact I. Qed.
