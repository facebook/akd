(* Refinement: the insertion algorithm (Insert.v, the model of batch_insert_nodes tied to the code by
   the X-tree correspondence) keeps the tree canonical and adds exactly the batch; with
   SpecFacts.canon_root_spec the tree after any publish history is the specification trie over the
   prescribed leaves. *)
From Coq Require Import List Bool Arith NArith Lia Permutation.
From Akd Require Import Bits NodeLabel NodeLabelFacts ElemSet ElemSetFacts Hashing Tree TreeFacts Insert Spec SpecFacts.
Import ListNotations.
Open Scope N_scope.

Definition sleaf_of_elem (e : N) (x : elem) : sleaf := SL (bits_of (e_label x)) (e_value x) e.
Definition ebits (l : list elem) : list sleaf := map (sleaf_of_elem 0) l.

Definition elabs_ok (l : list elem) : Prop := forall x, In x l -> WF (e_label x) /\ canonical (e_label x) = true.
Definition same_len (l : list elem) : Prop := exists len, forall x, In x l -> llen (e_label x) = len.
Definition good_set (s : eset) : Prop :=
  match s with Unsorted _ => True | BinarySearchable l => sorted_bits l /\ same_len l end.

Definition side (p : bits) (d : bool) (x : elem) : bool :=
  match pord p (bits_of (e_label x)) with Some d' => Bool.eqb d' d | None => false end.

Lemma side_iff B d x : side B d x = true <-> pord B (bits_of (e_label x)) = Some d.
Proof.
  unfold side. destruct (pord B (bits_of (e_label x))) as [d'|]; [|split; discriminate].
  split; [intros H; apply eqb_prop in H; congruence | intros [= ->]; apply eqb_reflx].
Qed.

Lemma side_negb B d x : pord B (bits_of (e_label x)) <> None -> side B (negb d) x = negb (side B d x).
Proof. unfold side. destruct (pord B (bits_of (e_label x))) as [d'|]; [intros _; destruct d', d; reflexivity | congruence]. Qed.

Lemma side_prefix B d x : side B d x = true -> prefixb (B ++ [d]) (bits_of (e_label x)) = true.
Proof. intros H. apply pord_prefix, side_iff, H. Qed.

Lemma elcp_prefix S x : In x S -> prefixb (lcp_all (ebits S)) (bits_of (e_label x)) = true.
Proof. intros H. apply (lcp_all_prefix (ebits S) (sleaf_of_elem 0 x)), in_map, H. Qed.

Lemma elcp_greatest S c : S <> [] -> (forall x, In x S -> prefixb c (bits_of (e_label x)) = true) ->
  prefixb c (lcp_all (ebits S)) = true.
Proof.
  intros Hne H. apply lcp_all_greatest; [intros E; apply map_eq_nil in E; exact (Hne E)|].
  intros z Hz. unfold ebits in Hz. apply in_map_iff in Hz. destruct Hz as (w & <- & Hw). apply H. exact Hw.
Qed.

Lemma unsorted_lcp_fold empty : forall rest acc,
  canonical empty = false -> elabs_ok rest -> WF acc -> canonical acc = true ->
  let r := fold_left (fun acc n => get_longest_common_prefix empty (e_label n) acc) rest acc in
  bits_of r = fold_left (fun a y => lcp a (sl_bits y)) (ebits rest) (bits_of acc) /\ WF r /\ canonical r = true.
Proof.
  induction rest as [|n rest IH]; intros acc Ce Hok Wa Ca; cbn [fold_left ebits map]; [auto|].
  destruct (Hok n (or_introl eq_refl)) as [Wn Cn].
  destruct (glcp_good empty (e_label n) acc Wn Wa Cn Ca Ce) as (B & W & C).
  specialize (IH (get_longest_common_prefix empty (e_label n) acc) Ce (fun x Hx => Hok x (or_intror Hx)) W C).
  cbv zeta in IH. destruct IH as (IB & IW & IC). split; [|split; assumption].
  rewrite IB, B. cbn [sleaf_of_elem sl_bits]. rewrite lcp_comm. reflexivity.
Qed.

Lemma sorted_head_le x l y : sorted_bits (x :: l) -> In y (x :: l) -> lex_cmp (bits_of (e_label x)) (bits_of (e_label y)) <> Gt.
Proof.
  intros H [<-|Hy]; [rewrite lex_cmp_refl; discriminate|]. inversion H as [|? ? Hx _]; subst. rewrite (Hx y Hy). discriminate.
Qed.
Lemma sorted_last_ge : forall l d y, sorted_bits l -> In y l -> lex_cmp (bits_of (e_label y)) (bits_of (e_label (last l d))) <> Gt.
Proof.
  induction l as [|x l IH]; intros d y Hs Hy; [destruct Hy|].
  destruct l as [|z l'].
  - destruct Hy as [<-|[]]. cbn [last]. rewrite lex_cmp_refl. discriminate.
  - change (last (x :: z :: l') d) with (last (z :: l') d). destruct Hy as [<-|Hy].
    + inversion Hs as [|? ? Hx _]; subst. rewrite (Hx (last (z :: l') d)); [discriminate|].
      apply last_in. discriminate.
    + apply IH; [eapply sorted_bits_tail; exact Hs | exact Hy].
Qed.

Lemma eset_lcp_spec empty s :
  good_set s -> elabs_ok (eset_list s) -> eset_list s <> [] -> canonical empty = false ->
  let r := eset_lcp empty s in
  bits_of r = lcp_all (ebits (eset_list s)) /\ WF r /\ canonical r = true.
Proof.
  intros Hg Hok Hne Ce. destruct s as [nodes|nodes]; cbn [eset_list eset_lcp] in *.
  - destruct nodes as [|first rest]; [congruence|]. destruct Hg as [Hs [len Hlen]].
    set (lst := last (first :: rest) first).
    assert (Hlast : In lst (first :: rest)) by (subst lst; apply last_in; discriminate).
    destruct (Hok first (or_introl eq_refl)) as [Wf Cf]. destruct (Hok lst Hlast) as [Wl Cl].
    destruct (glcp_good empty (e_label first) (e_label lst) Wf Wl Cf Cl Ce) as (B & W & C).
    fold lst. split; [|split; assumption]. rewrite B.
    apply prefixb_antisym.
    + apply elcp_greatest; [discriminate|]. intros y Hy. destruct (Hok y Hy) as [Wy _].
      apply lex_between.
      * rewrite !length_bits_of by assumption. rewrite (Hlen first (or_introl eq_refl)), (Hlen y Hy). reflexivity.
      * rewrite !length_bits_of by assumption. rewrite (Hlen lst Hlast), (Hlen y Hy). reflexivity.
      * apply (sorted_head_le first rest y Hs Hy).
      * apply (sorted_last_ge (first :: rest) first y Hs Hy).
    + apply lcp_greatest; apply elcp_prefix; [left; reflexivity | exact Hlast].
  - destruct nodes as [|n0 rest]; [congruence|].
    destruct (Hok n0 (or_introl eq_refl)) as [W0 C0].
    exact (unsorted_lcp_fold empty rest (e_label n0) Ce (fun x Hx => Hok x (or_intror Hx)) W0 C0).
Qed.

Lemma sorted_filter (p : elem -> bool) l : sorted_bits l -> sorted_bits (filter p l).
Proof.
  induction 1 as [|x l Hx Hs IH]; cbn [filter]; [constructor|]. destruct (p x); [|exact IH].
  constructor; [|exact IH]. intros y Hy. apply filter_In in Hy. apply Hx. apply Hy.
Qed.
Lemma same_len_filter (p : elem -> bool) l : same_len l -> same_len (filter p l).
Proof. intros [len H]. exists len. intros x Hx. apply filter_In in Hx. apply H. apply Hx. Qed.

Lemma drop_invalid_none pl rl : (forall x, In x rl -> get_prefix_ordering pl (e_label x) <> None) -> drop_invalid_tail pl rl = rl.
Proof.
  destruct rl as [|x r]; [reflexivity|]. intros H. cbn [drop_invalid_tail].
  destruct (get_prefix_ordering pl (e_label x)) eqn:E; [reflexivity|]. exfalso. apply (H x (or_introl eq_refl)). exact E.
Qed.

Lemma eset_partition_spec s pl :
  good_set s -> elabs_ok (eset_list s) -> WF pl ->
  (forall x, In x (eset_list s) -> pord (bits_of pl) (bits_of (e_label x)) <> None) ->
  eset_list (fst (eset_partition s pl)) = filter (side (bits_of pl) false) (eset_list s) /\
  eset_list (snd (eset_partition s pl)) = filter (side (bits_of pl) true) (eset_list s) /\
  good_set (fst (eset_partition s pl)) /\ good_set (snd (eset_partition s pl)).
Proof.
  intros Hg Hok Wp Hnn.
  assert (Hgpo : forall x, In x (eset_list s) -> get_prefix_ordering pl (e_label x) = pord (bits_of pl) (bits_of (e_label x))).
  { intros x Hx. apply get_prefix_ordering_spec; [exact Wp | apply Hok; exact Hx]. }
  destruct s as [nodes|nodes]; cbn [eset_list eset_partition fst snd] in *.
  - destruct Hg as [Hs Hl].
    set (P := fun c => match get_prefix_ordering pl (e_label c) with Some true => false | _ => true end).
    assert (HPg : forall x, In x nodes -> P x = side (bits_of pl) false x).
    { intros x Hx. unfold P, side. rewrite (Hgpo x Hx). specialize (Hnn x Hx).
      destruct (pord (bits_of pl) (bits_of (e_label x))) as [[|]|]; try reflexivity. congruence. }
    (* [goes_left p] and [side p false] are convertible *)
    destruct (prefix_closed_boundary (side (bits_of pl) false) dummy_elem nodes (sorted_prefix_closed _ _ Hs Hnn))
      as ((Bk & Bt & Bf) & E1 & E2).
    set (k := length (filter (side (bits_of pl) false) nodes)) in *.
    assert (Hpp : partition_point P dummy_elem nodes = k).
    { apply partition_point_spec. split; [exact Bk|]. split.
      - intros i Hi. rewrite HPg by (apply nth_In; lia). apply Bt. exact Hi.
      - intros i Hi1 Hi2. rewrite HPg by (apply nth_In; exact Hi2). apply Bf; assumption. }
    fold P. rewrite Hpp.
    assert (ER : filter (fun x => negb (side (bits_of pl) false x)) nodes = filter (side (bits_of pl) true) nodes).
    { apply filter_ext_in. intros x Hx. symmetry. exact (side_negb _ false x (Hnn x Hx)). }
    rewrite <- E1, <- E2, ER.
    rewrite drop_invalid_none.
    2:{ intros x Hx. apply in_rev in Hx. apply filter_In in Hx. destruct Hx as [Hx _]. rewrite (Hgpo x Hx). apply Hnn. exact Hx. }
    rewrite rev_involutive.
    repeat split; try reflexivity; try (apply sorted_filter; exact Hs); apply same_len_filter; exact Hl.
  - repeat split; try exact I; apply filter_ext_in; intros x Hx; unfold side; rewrite (Hgpo x Hx);
      destruct (pord (bits_of pl) (bits_of (e_label x))) as [[|]|]; reflexivity.
Qed.

Section Body.
  Variable empty : nlabel.

  Definition cur_node (t : option tree) (s : eset) (epoch : N) : option (tree * bool * N) :=
    match t with
    | Some ex =>
      let set_lcp := eset_lcp empty s in
      let l := get_longest_common_prefix empty (tlabel ex) set_lcp in
      if llen l <? llen (tlabel ex) then
        match set_child (Node l epoch epoch None None) ex with
        | Some n => Some (n, true, 1)
        | None => None
        end
      else Some (ex, false, 0)
    | None =>
      match eset_list s with
      | [x] => Some (Leaf (e_label x) (e_value x) epoch, true, 1)
      | _ => Some (Node (eset_lcp empty s) epoch epoch None None, true, 1)
      end
    end.

  (* the second half of [ins] takes the same step for the left and then for the right child slot *)
  Definition fin_step (rec : option tree -> eset -> N -> option (tree * bool * N)) (epoch : N) (dir : bool) (sd : eset)
             (st : tree * N) : option (tree * N) :=
    let '(cn, k) := st in
    if eset_is_empty sd then Some (cn, k)
    else match rec (child cn dir) sd epoch with
         | None => None
         | Some (c, _, k') => match set_child cn c with Some cn' => Some (cn', k + k') | None => None end
         end.

  Definition finish (rec : option tree -> eset -> N -> option (tree * bool * N))
             (cn : tree) (is_new : bool) (k : N) (s : eset) (epoch : N) : option (tree * bool * N) :=
    let '(L, R) := eset_partition s (tlabel cn) in
    match fin_step rec epoch false L (cn, k) with
    | None => None
    | Some st1 =>
      match fin_step rec epoch true R st1 with Some (cn2, k2) => Some (cn2, is_new, k2) | None => None end
    end.

  Lemma ins_unfold f t s epoch :
    ins empty (S f) t s epoch =
    match cur_node t s epoch with
    | None => None
    | Some (cn, is_new, k) => finish (ins empty f) cn is_new k s epoch
    end.
  Proof.
    cbn [ins]. unfold cur_node, finish, fin_step.
    destruct (match t with Some _ => _ | None => _ end) as [[[cn is_new] k]|]; [|reflexivity].
    destruct (eset_partition s (tlabel cn)) as [L R].
    destruct (if eset_is_empty L then _ else _) as [[cn1 k1]|]; [|reflexivity].
    destruct (eset_is_empty R); [reflexivity|].
    destruct (ins empty f (child cn1 true) R epoch) as [[[c ?] k']|]; [|reflexivity]. destruct (set_child cn1 c); reflexivity.
  Qed.

  Lemma ins_root_unfold le mde a b s epoch :
    ins empty ins_fuel (Some (Node nl_root le mde a b)) s epoch = finish (ins empty 299) (Node nl_root le mde a b) false 0 s epoch.
  Proof.
    unfold ins_fuel. change 300%nat with (Datatypes.S 299). rewrite ins_unfold. unfold cur_node. cbn [tlabel].
    replace (llen _ <? llen nl_root) with false; [reflexivity|]. symmetry. apply N.ltb_ge. cbn [llen nl_root]. lia.
  Qed.
End Body.

Lemma finish_single rec cn isn k s e x :
  eset_list s = [x] -> get_prefix_ordering (tlabel cn) (e_label x) = None -> finish rec cn isn k s e = Some (cn, isn, k).
Proof.
  intros El Hn. unfold finish, fin_step.
  destruct s as [nodes|nodes]; cbn [eset_list] in El; subst nodes; cbn [eset_partition].
  - unfold partition_point, binary_search_by. cbn [length bs_loop Nat.leb nth]. rewrite Hn.
    cbn [snd skipn firstn rev app drop_invalid_tail]. rewrite Hn. reflexivity.
  - cbn [filter]. rewrite Hn. reflexivity.
Qed.

Definition lf_of (e : N) (x : elem) : leaf := LF (e_label x) (e_value x) e.

(* The directory inserts sets of distinct 256-bit labels into trees whose leaves are 256 bits long
   ([set_ok], [tree_pre]).  The insertion itself needs less, and the auditor's node lists (labels of
   mixed lengths) meet only that: no label of the set is a prefix of another, or comparable with a
   leaf of the tree ([set_pre], [sub_pre]). *)
Definition set_ok (q : bits) (S : list elem) : Prop :=
  elabs_ok S /\ (forall x, In x S -> llen (e_label x) = 256) /\ NoDup (map e_label S) /\
  (forall x, In x S -> prefixb q (bits_of (e_label x)) = true).

Definition leaves_ok (e : N) (ls : list leaf) : Prop :=
  forall y, In y ls -> llen (lf_label y) = 256 /\ 1 <= lf_epoch y /\ lf_epoch y <= e.

Definition tree_pre (q : bits) (e : N) (t : option tree) (S : list elem) : Prop :=
  match t with
  | None => True
  | Some ex =>
    canon ex /\ prefixb q (bits_of (tlabel ex)) = true /\ leaves_ok e (leaves ex) /\
    (forall x y, In x S -> In y (leaves ex) -> e_label x <> lf_label y)
  end.

Definition child_pre (B : bits) (e : N) (S : list elem) (dir : bool) (c : option tree) : Prop :=
  match c with
  | None => True
  | Some c' => tree_pre (B ++ [dir]) e (Some c') (filter (side B dir) S)
  end.

(* AuditRebuild.pfree is this predicate under the auditor's name (convertible) *)
Definition prefix_free (S : list elem) : Prop :=
  forall x y, In x S -> In y S -> prefixb (bits_of (e_label x)) (bits_of (e_label y)) = true -> e_label x = e_label y.

Definition set_pre (q : bits) (S : list elem) : Prop :=
  elabs_ok S /\ NoDup (map e_label S) /\ prefix_free S /\
  (forall x, In x S -> prefixb q (bits_of (e_label x)) = true).

Definition epochs_ok (e : N) (ls : list leaf) : Prop := forall y, In y ls -> 1 <= lf_epoch y /\ lf_epoch y <= e.

Definition apart (S : list elem) (ls : list leaf) : Prop :=
  forall x y, In x S -> In y ls ->
    prefixb (bits_of (e_label x)) (bits_of (lf_label y)) = false /\
    prefixb (bits_of (lf_label y)) (bits_of (e_label x)) = false.

Definition sub_pre (q : bits) (e : N) (t : option tree) (S : list elem) : Prop :=
  match t with
  | None => True
  | Some ex => canon ex /\ prefixb q (bits_of (tlabel ex)) = true /\ epochs_ok e (leaves ex) /\ apart S (leaves ex)
  end.

Definition post (q : bits) (t : option tree) (S : list elem) (e : N) (r : tree) : Prop :=
  canon r /\ prefixb q (bits_of (tlabel r)) = true /\
  Permutation (leaves r) (oleaves t ++ map (lf_of e) S) /\
  t_last_epoch r = e /\ t_min_desc r = match t with Some ex => t_min_desc ex | None => e end.

Definition rec_ok (rec : option tree -> eset -> N -> option (tree * bool * N)) (e : N) (B : bits) : Prop :=
  forall dir t' s', good_set s' -> eset_list s' <> [] -> set_pre (B ++ [dir]) (eset_list s') ->
    sub_pre (B ++ [dir]) e t' (eset_list s') ->
    exists r isn k, rec t' s' e = Some (r, isn, k) /\ post (B ++ [dir]) t' (eset_list s') e r.

Definition child_post (B : bits) (dir : bool) (c : option tree) : Prop :=
  match c with Some r => pord B (bits_of (tlabel r)) = Some dir /\ canon r | None => True end.

Definition omde (e : N) (c : option tree) : N := match c with Some c' => t_min_desc c' | None => e end.
Definition le_upd (x e : N) (Sd : list elem) : N := match Sd with [] => x | _ => N.max x e end.
Definition mde_upd (m : N) (Sd : list elem) (mc : N) : N :=
  match Sd with [] => m | _ => if m =? 0 then mc else N.min m mc end.

Lemma eset_is_empty_iff s : eset_is_empty s = true <-> eset_list s = [].
Proof. unfold eset_is_empty. destruct (eset_list s); split; congruence. Qed.

Lemma set_pre_side B S d : set_pre B S -> set_pre (B ++ [d]) (filter (side B d) S).
Proof.
  intros (Hok & Hnd & Hpf & Hp). split; [|split; [|split]].
  - intros x Hx. apply Hok. apply filter_In in Hx. apply Hx.
  - apply NoDup_map_filter. exact Hnd.
  - intros x y Hx Hy. apply filter_In in Hx, Hy. apply Hpf; [apply Hx | apply Hy].
  - intros x Hx. apply filter_In in Hx. apply side_prefix. apply Hx.
Qed.

Lemma set_pre_perm q S S' : Permutation S S' -> set_pre q S' -> set_pre q S.
Proof.
  intros P (Hok & Hnd & Hpf & Hq). split; [|split; [|split]].
  - intros x Hx. apply Hok. eapply Permutation_in; eassumption.
  - eapply Permutation_NoDup; [apply Permutation_sym; apply Permutation_map; exact P | exact Hnd].
  - intros x y Hx Hy. apply Hpf; eapply Permutation_in; eassumption.
  - intros x Hx. apply Hq. eapply Permutation_in; eassumption.
Qed.

Lemma set_pre_below q q' S : set_pre q S -> (forall x, In x S -> prefixb q' (bits_of (e_label x)) = true) -> set_pre q' S.
Proof. intros (Hok & Hnd & Hpf & _) Hq. exact (conj Hok (conj Hnd (conj Hpf Hq))). Qed.

Lemma same_len_prefix a b : WF a -> WF b -> canonical a = true -> canonical b = true -> llen a = llen b ->
  prefixb (bits_of a) (bits_of b) = true -> a = b.
Proof.
  intros Wa Wb Ca Cb El E. apply bits_of_inj; try assumption. apply prefixb_long_eq; [exact E|].
  rewrite !length_bits_of by assumption. lia.
Qed.

Lemma set_ok_pre q S : set_ok q S -> set_pre q S.
Proof.
  intros (Hok & Hlen & Hnd & Hq). split; [exact Hok|]. split; [exact Hnd|]. split; [|exact Hq].
  intros x y Hx Hy. destruct (Hok x Hx), (Hok y Hy). apply same_len_prefix; try assumption.
  rewrite (Hlen x Hx), (Hlen y Hy). reflexivity.
Qed.

Lemma apart_256 S ls :
  elabs_ok S -> (forall x, In x S -> llen (e_label x) = 256) ->
  (forall y, In y ls -> WF (lf_label y) /\ canonical (lf_label y) = true) ->
  (forall y, In y ls -> llen (lf_label y) = 256) ->
  (forall x y, In x S -> In y ls -> e_label x <> lf_label y) -> apart S ls.
Proof.
  intros Hok Hlen Hl Hl256 Hd x y Hx Hy. destruct (Hok x Hx) as [Wx Cx]. destruct (Hl y Hy) as [Wy Cy].
  pose proof (Hd x y Hx Hy) as Hne. pose proof (Hlen x Hx) as Lx. pose proof (Hl256 y Hy) as Ly.
  split; apply not_true_is_false; intros E; apply Hne; [|symmetry]; apply same_len_prefix; congruence.
Qed.

Lemma set_child_node l le mde a b c d :
  WF l -> WF (tlabel c) -> pord (bits_of l) (bits_of (tlabel c)) = Some d ->
  set_child (Node l le mde a b) c =
  Some (Node l (N.max le (t_last_epoch c)) (if mde =? 0 then t_min_desc c else N.min mde (t_min_desc c))
             (if d then a else Some c) (if d then Some c else b)).
Proof.
  intros Wl Wc P. unfold set_child. rewrite get_prefix_ordering_spec by assumption. rewrite P. destruct d; reflexivity.
Qed.

Lemma tree_pre_sub B e S d c :
  child_pre B e S d (Some c) -> tree_pre (B ++ [d]) e (Some c) (filter (side B d) S).
Proof. intros H. exact H. Qed.

Lemma canon_epochs ex e : canon ex -> epochs_ok e (leaves ex) ->
  t_last_epoch ex <= e /\ 1 <= t_min_desc ex /\ t_min_desc ex <= e.
Proof.
  intros Hc Hl. destruct (canon_spec_sub ex Hc) as (Mx & Mn & _). rewrite <- Mx, <- Mn.
  assert (Hb : forall x, In x (sleaves ex) -> 1 <= sl_epoch x /\ sl_epoch x <= e).
  { intros x Hx. unfold sleaves in Hx. apply in_map_iff in Hx. destruct Hx as (y & <- & Hy). apply Hl. exact Hy. }
  split; [apply max_epoch_le; intros x Hx; apply Hb; exact Hx|].
  apply min_epoch_bounds; [apply sleaves_nonempty; apply Hc | exact Hb].
Qed.

Definition obound (e : N) (o : option tree) : Prop :=
  match o with Some c => t_last_epoch c <= e /\ 1 <= t_min_desc c /\ t_min_desc c <= e | None => True end.

Lemma sub_pre_bound q e c S : sub_pre q e c S -> obound e c.
Proof. destruct c as [c|]; [|intros _; exact I]. intros (Cc & _ & Lc & _). apply canon_epochs; assumption. Qed.

Definition aslot (e : N) (Sd : list elem) (c c' : option tree) : Prop :=
  (Sd = [] /\ c' = c) \/ (Sd <> [] /\ exists r, c' = Some r /\ t_last_epoch r = e /\ t_min_desc r = omde e c).

(* A node under construction is annotated with the maximum / minimum over its children, or it is fresh:
   last_epoch = e already, min_descendant_epoch = e while it has no child (set_child reads 0 as "none"). *)
Definition ann (e le mde : N) (a b : option tree) : Prop :=
  (le = N.max (olast a) (olast b) \/ le = e) /\ (mde = omin a b \/ (a = None /\ b = None /\ mde = e)).

Lemma ann_step e le mde a b (dir : bool) c' Sd :
  1 <= e -> obound e a -> obound e b -> ann e le mde a b ->
  aslot e Sd (if dir then b else a) c' ->
  ann e (le_upd le e Sd) (mde_upd mde Sd (omde e (if dir then b else a))) (if dir then a else c') (if dir then c' else b).
Proof.
  intros He Ba Bb [Hle Hmde] [[-> ->]|[NS (r & -> & Lr & Mr)]].
  - destruct dir; split; assumption.
  - destruct Sd as [|? ?]; [congruence|]. cbn [le_upd mde_upd]. split.
    + right. destruct Hle as [-> | ->]; [|lia]. destruct a, b; cbn [olast obound] in *; lia.
    + left. assert (nz : forall m c, 1 <= m -> (if m =? 0 then c else N.min m c) = N.min m c).
      { intros m c Hm. destruct (N.eqb_spec m 0); [lia | reflexivity]. }
      destruct dir, a as [ca|], b as [cb|]; cbn [omde omin obound] in *; rewrite Mr;
        (destruct Hmde as [->|(? & ? & ->)]; [|try discriminate]); cbn [omin];
        rewrite ?nz by lia; rewrite ?N.eqb_refl; lia.
Qed.

Lemma aslot_None e Sd c : aslot e Sd c None -> c = None /\ Sd = [].
Proof. intros [[-> ->]|[_ (r & E & _)]]; [auto | discriminate]. Qed.

Lemma aslot_bound e Sd c c' : 1 <= e -> obound e c -> aslot e Sd c c' -> obound e c'.
Proof.
  intros He Bc [[_ ->]|[_ (r & -> & Lr & Mr)]]; [exact Bc|]. cbn [obound]. rewrite Lr, Mr.
  destruct c; cbn [omde obound] in *; lia.
Qed.

Lemma omin_slots e a b a' b' SL SR :
  1 <= e -> obound e a -> obound e b -> aslot e SL a a' -> aslot e SR b b' -> (SL <> [] \/ SR <> []) ->
  N.max (olast a') (olast b') = e /\ omin a' b' = match a, b with None, None => e | _, _ => omin a b end /\
  (a' <> None \/ b' <> None).
Proof.
  intros He Ba Bb [[-> ->]|[_ (ra & -> & La & Ma)]] [[-> ->]|[_ (rb & -> & Lb & Mb)]] Hne;
    [destruct Hne; congruence| | |]; cbn [olast omin]; rewrite ?La, ?Lb, ?Ma, ?Mb;
    destruct a, b; cbn [omde olast omin obound] in *; (split; [lia|]); (split; [lia|]);
    first [left; discriminate | right; discriminate].
Qed.

Lemma sides_perm {A} (f : elem -> A) B S :
  (forall x, In x S -> pord B (bits_of (e_label x)) <> None) ->
  Permutation (map f (filter (side B false) S) ++ map f (filter (side B true) S)) (map f S).
Proof.
  induction S as [|x S IH]; intros H; [constructor|].
  specialize (IH (fun y Hy => H y (or_intror Hy))). cbn [filter].
  rewrite (side_negb B true x (H x (or_introl eq_refl)) : side B false x = _). destruct (side B true x); cbn [negb map app].
  - eapply Permutation_trans; [apply Permutation_sym; apply Permutation_middle|]. constructor. exact IH.
  - constructor. exact IH.
Qed.

Lemma side_cover B S : S <> [] -> (forall x, In x S -> pord B (bits_of (e_label x)) <> None) ->
  filter (side B false) S <> [] \/ filter (side B true) S <> [].
Proof.
  destruct S as [|x S]; [congruence|]. intros _ H. cbn [filter].
  rewrite (side_negb B true x (H x (or_introl eq_refl)) : side B false x = _). destruct (side B true x); [right | left]; discriminate.
Qed.

Section Finish.
  Variable rec : option tree -> eset -> N -> option (tree * bool * N).

  Lemma fin_step_spec l le mde a b k sd e (dir : bool) (S : list elem) :
    let B := bits_of l in let c := if dir then b else a in let Sd := filter (side B dir) S in
    WF l -> good_set sd -> eset_list sd = Sd -> set_pre B S -> sub_pre (B ++ [dir]) e c Sd -> rec_ok rec e B ->
    exists c' k',
      fin_step rec e dir sd (Node l le mde a b, k) =
      Some (Node l (le_upd le e Sd) (mde_upd mde Sd (omde e c)) (if dir then a else c') (if dir then c' else b), k') /\
      aslot e Sd c c' /\ child_post B dir c' /\ Permutation (oleaves c') (oleaves c ++ map (lf_of e) Sd).
  Proof.
    intros B c Sd Wl Hg EL Hso Hc Hrec. unfold fin_step.
    destruct (eset_is_empty sd) eqn:EE.
    - apply eset_is_empty_iff in EE. rewrite EL in EE. exists c, k. rewrite EE.
      split; [destruct dir; reflexivity|]. split; [left; split; reflexivity|]. split.
      + destruct c as [c0|]; [|exact I]. destruct Hc as (Cc & Pc & _). split; [apply pord_prefixb; exact Pc | exact Cc].
      + cbn [map]. rewrite app_nil_r. apply Permutation_refl.
    - assert (Hne : Sd <> []) by (intros E0; rewrite <- EL in E0; apply eset_is_empty_iff in E0; congruence).
      replace (child (Node l le mde a b) dir) with c by (destruct dir; reflexivity).
      destruct (Hrec dir c sd Hg ltac:(rewrite EL; exact Hne) ltac:(rewrite EL; apply set_pre_side; exact Hso)
                     ltac:(rewrite EL; exact Hc)) as (r & isn' & k' & Er & Hp).
      rewrite Er. rewrite EL in Hp. destruct Hp as (Cr & Pr & Perm & Ler & Mr). destruct (canon_label r Cr) as [Wr _].
      rewrite (set_child_node l le mde a b r dir Wl Wr (proj2 (pord_prefixb B _ dir) Pr)).
      exists (Some r), (k + k'). split; [|split; [|split]].
      + rewrite Ler, Mr. destruct Sd; [congruence|]. destruct dir, c; reflexivity.
      + right. split; [exact Hne|]. exists r. split; [reflexivity|]. split; [exact Ler | exact Mr].
      + split; [apply pord_prefixb; exact Pr | exact Cr].
      + exact Perm.
  Qed.

  Lemma node_finish l le mde a b isn k s e :
    let B := bits_of l in let S := eset_list s in
    WF l -> good_set s -> set_pre B S -> S <> [] -> 1 <= e ->
    (forall x, In x S -> pord B (bits_of (e_label x)) <> None) ->
    sub_pre (B ++ [false]) e a (filter (side B false) S) -> sub_pre (B ++ [true]) e b (filter (side B true) S) ->
    rec_ok rec e B -> ann e le mde a b ->
    exists a' b' k',
      finish rec (Node l le mde a b) isn k s e = Some (Node l (N.max (olast a') (olast b')) (omin a' b') a' b', isn, k') /\
      N.max (olast a') (olast b') = e /\
      omin a' b' = match a, b with None, None => e | _, _ => omin a b end /\
      child_post B false a' /\ child_post B true b' /\
      (a' = None -> a = None /\ filter (side B false) S = []) /\
      (b' = None -> b = None /\ filter (side B true) S = []) /\
      Permutation (oleaves a' ++ oleaves b') ((oleaves a ++ oleaves b) ++ map (lf_of e) S).
  Proof.
    intros B S Wl Hg Hso Hne He Hnn Ha Hb Hrec Hann. subst B S.
    destruct (eset_partition_spec s l Hg (proj1 Hso) Wl Hnn) as (EL & ER & GL & GR).
    unfold finish. cbn [tlabel]. destruct (eset_partition s l) as [L R]. cbn [fst snd] in EL, ER, GL, GR.
    destruct (fin_step_spec l le mde a b k L e false _ Wl GL EL Hso Ha Hrec) as (a' & k1 & E1 & Sa & Ca & Pa).
    cbv iota in E1, Sa, Pa. rewrite E1. cbv beta iota.
    set (le1 := le_upd le e _) in *. set (mde1 := mde_upd mde _ _) in *.
    destruct (fin_step_spec l le1 mde1 a' b k1 R e true _ Wl GR ER Hso Hb Hrec) as (b' & k2 & E2 & Sb & Cb & Pb).
    cbv iota in E2, Sb, Pb. rewrite E2.
    pose proof (sub_pre_bound _ _ _ _ Ha) as Ba. pose proof (sub_pre_bound _ _ _ _ Hb) as Bb.
    pose proof (ann_step e le mde a b false a' _ He Ba Bb Hann Sa) as A1. cbv iota in A1.
    pose proof (ann_step e _ _ a' b true b' _ He (aslot_bound e _ a a' He Ba Sa) Bb A1 Sb) as [Hle Hmde]. cbv iota in Hle, Hmde.
    destruct (omin_slots e a b a' b' _ _ He Ba Bb Sa Sb (side_cover _ _ Hne Hnn)) as (Emax & Emin & Hsome).
    exists a', b', k2.
    split; [|split; [exact Emax|split; [exact Emin|split; [exact Ca|split; [exact Cb|split; [intros ->; exact (aslot_None _ _ _ Sa)|split; [intros ->; exact (aslot_None _ _ _ Sb)|]]]]]]].
    - f_equal. f_equal. f_equal. f_equal.
      + destruct Hle as [H|H]; [exact H | rewrite Emax; exact H].
      + destruct Hmde as [H|(Ea & Eb & _)]; [exact H | destruct Hsome; congruence].
    - eapply Permutation_trans; [apply Permutation_app; [exact Pa | exact Pb]|].
      eapply Permutation_trans; [apply perm_shuffle|]. apply Permutation_app_head. apply sides_perm. exact Hnn.
  Qed.
End Finish.

Lemma one_sided P S d : S <> [] -> (forall x, In x S -> pord P (bits_of (e_label x)) <> None) ->
  filter (side P (negb d)) S = [] -> prefixb (P ++ [d]) (lcp_all (ebits S)) = true.
Proof.
  intros Hne Hnn He. apply elcp_greatest; [exact Hne|]. intros x Hx. apply side_prefix.
  destruct (side P d x) eqn:E; [reflexivity|]. exfalso.
  assert (Hin : In x (filter (side P (negb d)) S))
    by (apply filter_In; split; [exact Hx | rewrite (side_negb P d x (Hnn x Hx)), E; reflexivity]).
  rewrite He in Hin. exact Hin.
Qed.

Lemma elcp_sides S d : S <> [] -> (forall x, In x S -> pord (lcp_all (ebits S)) (bits_of (e_label x)) <> None) ->
  filter (side (lcp_all (ebits S)) d) S <> [].
Proof.
  intros Hne Hnn E. rewrite <- (negb_involutive d) in E.
  exact (snoc_not_prefix _ _ (one_sided _ S (negb d) Hne Hnn E)).
Qed.

Lemma elcp_proper q S x y r : set_pre q S -> S = x :: y :: r ->
  forall z, In z S -> pord (lcp_all (ebits S)) (bits_of (e_label z)) <> None.
Proof.
  intros (Hok & Hnd & Hpf & _) ES z Hz Hn. apply pord_None_prefix in Hn; [|apply elcp_prefix; exact Hz].
  (* the common prefix would be z's label, which every label extends: all labels would be z's *)
  assert (Hall : forall w, In w S -> e_label z = e_label w).
  { intros w Hw. apply Hpf; try assumption. rewrite Hn. apply elcp_prefix; exact Hw. }
  assert (Hx : In x S) by (rewrite ES; left; reflexivity).
  assert (Hy : In y S) by (rewrite ES; right; left; reflexivity).
  rewrite ES in Hnd. cbn [map] in Hnd. apply NoDup_cons_iff in Hnd. apply (proj1 Hnd). left.
  rewrite <- (Hall x Hx). symmetry. apply Hall. exact Hy.
Qed.

Lemma above_tree ex S z : canon ex -> apart S (leaves ex) -> In z S ->
  prefixb (bits_of (e_label z)) (bits_of (tlabel ex)) = false.
Proof.
  intros Cex. pose proof (wf_sub_leaves_nonempty ex (proj1 Cex)) as Hne.
  pose proof (leaves_prefix ex (wf_sub_wfg ex (proj1 Cex))) as Hp.
  destruct (leaves ex) as [|y ls]; [congruence|]. intros Dex Hz.
  destruct (prefixb (bits_of (e_label z)) (bits_of (tlabel ex))) eqn:P; [|reflexivity].
  destruct (Dex z y Hz (or_introl eq_refl)) as [D _].
  rewrite (prefixb_trans _ _ _ P (Hp y (or_introl eq_refl))) in D. discriminate.
Qed.

Lemma sub_pre_child B e S dir c ls :
  canon c -> pord B (bits_of (tlabel c)) = Some dir -> epochs_ok e ls -> apart S ls -> incl (leaves c) ls ->
  sub_pre (B ++ [dir]) e (Some c) (filter (side B dir) S).
Proof.
  intros Cc Pc Hl Hd Hi. split; [exact Cc|]. split; [apply pord_prefix; exact Pc|]. split.
  - intros y Hy. apply Hl. apply Hi. exact Hy.
  - intros x y Hx Hy. apply filter_In in Hx. apply Hd; [apply Hx | apply Hi; exact Hy].
Qed.

Lemma canon_onode l a b : WF l -> canonical l = true -> a <> None -> b <> None ->
  child_post (bits_of l) false a -> child_post (bits_of l) true b ->
  canon (Node l (N.max (olast a) (olast b)) (omin a b) a b).
Proof.
  intros Wl Cl Ha Hb Ca Cb. destruct a as [ra|]; [|congruence]. destruct b as [rb|]; [|congruence].
  destruct Ca as [Pa Ca]. destruct Cb as [Pb Cb]. apply canon_node; try assumption; reflexivity.
Qed.

Lemma elems_distinct_bits S x y :
  elabs_ok S -> NoDup (map e_label S) -> In x S -> In y S -> bits_of (e_label x) = bits_of (e_label y) -> x = y \/ e_label x = e_label y.
Proof.
  intros Hok _ Hx Hy E. right. destruct (Hok x Hx) as [Wx Cx]. destruct (Hok y Hy) as [Wy Cy].
  apply bits_of_inj; assumption.
Qed.

Lemma q_le_256 q S : S <> [] -> set_pre q S -> (length q <= 256)%nat.
Proof.
  intros Hne (Hok & _ & _ & Hq). destruct S as [|x S]; [congruence|].
  pose proof (Hq x (or_introl eq_refl)) as H. apply prefixb_length in H.
  pose proof (bits_le_256 _ (proj1 (Hok x (or_introl eq_refl)))). lia.
Qed.

Section InsCases.
  Variable empty : nlabel.
  Hypothesis Ce : canonical empty = false.
  Variable rec : option tree -> eset -> N -> option (tree * bool * N).

  (* case 2 of [ins] *)
  Lemma ins_none_single q s e x :
    eset_list s = [x] -> set_pre q [x] ->
    exists k, finish rec (Leaf (e_label x) (e_value x) e) true 1 s e = Some (Leaf (e_label x) (e_value x) e, true, k) /\
              post q None [x] e (Leaf (e_label x) (e_value x) e).
  Proof.
    intros ES (Hok & _ & _ & Hq). destruct (Hok x (or_introl eq_refl)) as [Wx Cx]. exists 1. split.
    { apply (finish_single _ _ _ _ s e x ES). cbn [tlabel]. rewrite get_prefix_ordering_spec by assumption. apply pord_irrefl. }
    split; [apply canon_leaf; assumption|]. split; [apply Hq; left; reflexivity|].
    split; [apply Permutation_refl|]. split; reflexivity.
  Qed.

  Variables (q : bits) (s : eset) (e : N).
  Hypotheses (He : 1 <= e) (Hg : good_set s) (Hso : set_pre q (eset_list s))
             (Hrec : forall B, (length q <= length B)%nat -> rec_ok rec e B).

  (* case 3: the new node sits at the common prefix of two or more labels, below which both
     directions occur: it gets two children *)
  Lemma ins_none_many x y r0 :
    eset_list s = x :: y :: r0 ->
    exists r k, finish rec (Node (eset_lcp empty s) e e None None) true 1 s e = Some (r, true, k) /\
                post q None (eset_list s) e r.
  Proof.
    intros ES. set (S := eset_list s) in *.
    assert (Hne : S <> []) by (rewrite ES; discriminate).
    destruct (eset_lcp_spec empty s Hg (proj1 Hso) Hne Ce) as (Pb & Pw & Pc). cbv zeta in Pb, Pw, Pc.
    set (l := eset_lcp empty s) in *. fold S in Pb.
    pose proof (elcp_proper q S x y r0 Hso ES) as Hnn. rewrite <- Pb in Hnn.
    assert (Hq : prefixb q (bits_of l) = true) by (rewrite Pb; apply elcp_greatest; [exact Hne | apply Hso]).
    assert (Hso' : set_pre (bits_of l) S) by (apply (set_pre_below q); [exact Hso | rewrite Pb; apply elcp_prefix]).
    destruct (node_finish rec l e e None None true 1 s e Pw Hg Hso' Hne He Hnn I I (Hrec _ (prefixb_length _ _ Hq))
                (conj (or_intror eq_refl) (or_intror (conj eq_refl (conj eq_refl eq_refl)))))
      as (a' & b' & k' & EF & Emax & Emin & Ca & Cb & Na & Nb & Perm).
    eexists. exists k'. split; [exact EF|].
    split; [|split; [exact Hq | split; [exact Perm | split; [exact Emax | exact Emin]]]].
    apply canon_onode; try assumption.
    - intros E. apply (elcp_sides S false Hne); [rewrite <- Pb; exact Hnn | rewrite <- Pb; apply (Na E)].
    - intros E. apply (elcp_sides S true Hne); [rewrite <- Pb; exact Hnn | rewrite <- Pb; apply (Nb E)].
  Qed.

  Lemma some_setup ex :
    eset_list s <> [] -> canon ex -> prefixb q (bits_of (tlabel ex)) = true ->
    let S := eset_list s in
    let l := get_longest_common_prefix empty (tlabel ex) (eset_lcp empty s) in
    bits_of l = lcp (bits_of (tlabel ex)) (lcp_all (ebits S)) /\ WF l /\ canonical l = true /\
    prefixb q (bits_of l) = true /\
    (forall x, In x S -> prefixb (bits_of l) (bits_of (e_label x)) = true).
  Proof.
    intros Hne Cex Pex S l. destruct (canon_label ex Cex) as [Wx Cx].
    destruct (eset_lcp_spec empty s Hg (proj1 Hso) Hne Ce) as (Pb & Pw & Pc). cbv zeta in Pb, Pw, Pc. fold S in Pb.
    destruct (glcp_good empty (tlabel ex) (eset_lcp empty s) Wx Pw Cx Pc Ce) as (Lb & Lw & Lc). cbv zeta in Lb, Lw, Lc.
    fold l in Lb, Lw, Lc. rewrite Pb in Lb.
    split; [exact Lb|]. split; [exact Lw|]. split; [exact Lc|]. rewrite Lb. split.
    - apply lcp_greatest; [exact Pex|]. apply elcp_greatest; [exact Hne | apply Hso].
    - intros x Hx. eapply prefixb_trans; [apply lcp_prefix_r | apply elcp_prefix; exact Hx].
  Qed.

  (* case 1a: the new elements leave the edge above the existing node: a new node is put in between,
     the existing subtree on one side of it and at least one new element on the other *)
  Lemma ins_some_split ex :
    eset_list s <> [] -> sub_pre q e (Some ex) (eset_list s) ->
    let l := get_longest_common_prefix empty (tlabel ex) (eset_lcp empty s) in
    llen l < llen (tlabel ex) ->
    exists n r k, set_child (Node l e e None None) ex = Some n /\ finish rec n true 1 s e = Some (r, true, k) /\
                  post q (Some ex) (eset_list s) e r.
  Proof.
    intros Hne (Cex & Pex & Lex & Dex) l Hlt.
    destruct (some_setup ex Hne Cex Pex) as (Lb & Lw & Lc & Hq & Hpl).
    cbv zeta in Lb, Lw, Lc, Hq, Hpl. fold l in Lb, Lw, Lc, Hq, Hpl.
    set (S := eset_list s) in *. set (Bl := bits_of l) in *. set (Bx := bits_of (tlabel ex)) in *.
    destruct (canon_label ex Cex) as [Wx Cx]. destruct (canon_epochs ex e Cex Lex) as (Lle & Lm1 & Lme).
    assert (Plx : prefixb Bl Bx = true) by (rewrite Lb; apply lcp_prefix_l).
    destruct (pord_proper Bl Bx Plx) as [d Pd]; [subst Bl Bx; rewrite !length_bits_of by assumption; clear - Hlt; lia|].
    rewrite (set_child_node l e e None None ex d Lw Wx Pd).
    replace (N.max e (t_last_epoch ex)) with e by (clear - Lle; lia).
    replace (if e =? 0 then t_min_desc ex else N.min e (t_min_desc ex)) with (t_min_desc ex)
      by (clear - He Lme; destruct (N.eqb_spec e 0); lia).
    set (a := if d then None else Some ex). set (b := if d then Some ex else None).
    assert (Hnn : forall x, In x S -> pord Bl (bits_of (e_label x)) <> None).
    { intros x Hx. apply pord_not_None; [apply Hpl; exact Hx|].
      destruct (prefixb (bits_of (e_label x)) Bl) eqn:E; [|reflexivity].
      rewrite <- (above_tree ex S x Cex Dex Hx). symmetry. exact (prefixb_trans _ _ _ E Plx). }
    assert (Hother : filter (side Bl (negb d)) S <> []).
    { intros E. apply (snoc_not_prefix Bl d). rewrite Lb at 2.
      apply lcp_greatest; [apply pord_prefix; exact Pd | exact (one_sided Bl S d Hne Hnn E)]. }
    pose proof (sub_pre_child Bl e S d ex _ Cex Pd Lex Dex (incl_refl _)) as Hex.
    assert (Ha : sub_pre (Bl ++ [false]) e a (filter (side Bl false) S)) by (subst a; destruct d; [exact I | exact Hex]).
    assert (Hb : sub_pre (Bl ++ [true]) e b (filter (side Bl true) S)) by (subst b; destruct d; [exact Hex | exact I]).
    assert (Hann : ann e e (t_min_desc ex) a b) by (split; [right; reflexivity | left; subst a b; destruct d; reflexivity]).
    destruct (node_finish rec l e (t_min_desc ex) a b true 1 s e Lw Hg (set_pre_below q Bl S Hso Hpl) Hne He Hnn Ha Hb
                (Hrec Bl (prefixb_length _ _ Hq)) Hann)
      as (a' & b' & k' & EF & Emax & Emin & Ca & Cb & Na & Nb & Perm).
    eexists. eexists. exists k'. split; [reflexivity|]. split; [exact EF|].
    split; [|split; [exact Hq | split; [|split; [exact Emax|]]]].
    - apply canon_onode; try assumption.
      + intros E. destruct (Na E) as [Ea E0]. subst a. destruct d; [exact (Hother E0) | discriminate].
      + intros E. destruct (Nb E) as [Eb E0]. subst b. destruct d; [discriminate | exact (Hother E0)].
    - replace (oleaves (Some ex)) with (oleaves a ++ oleaves b) by (subst a b; destruct d; [reflexivity | apply app_nil_r]).
      exact Perm.
    - rewrite Emin. subst a b. destruct d; reflexivity.
  Qed.

  (* case 1b: every new element lies below the existing node *)
  Lemma ins_some_descend ex :
    eset_list s <> [] -> sub_pre q e (Some ex) (eset_list s) ->
    let l := get_longest_common_prefix empty (tlabel ex) (eset_lcp empty s) in
    llen (tlabel ex) <= llen l ->
    exists r k, finish rec ex false 0 s e = Some (r, false, k) /\ post q (Some ex) (eset_list s) e r.
  Proof.
    intros Hne (Cex & Pex & Lex & Dex) l Hge.
    destruct (some_setup ex Hne Cex Pex) as (Lb & Lw & Lc & Hq & Hpl).
    cbv zeta in Lb, Lw, Lc, Hq, Hpl. fold l in Lb, Lw, Lc, Hq, Hpl.
    set (S := eset_list s) in *. set (Bx := bits_of (tlabel ex)) in *.
    (* the node's label is the common prefix: it is a prefix of every new element *)
    assert (El : bits_of l = Bx).
    { apply prefixb_long_eq; [rewrite Lb; apply lcp_prefix_l|].
      subst Bx. rewrite !length_bits_of by (try assumption; apply (canon_label ex Cex)). lia. }
    rewrite El in Hpl.
    destruct ex as [lx vx epx | l0 le0 mde0 a0 b0].
    - (* a leaf is not a prefix of a new element *)
      exfalso. destruct S as [|x S']; [congruence|].
      destruct (Dex x (LF lx vx epx) (or_introl eq_refl) (or_introl eq_refl)) as [_ D].
      change (prefixb Bx (bits_of (e_label x)) = false) in D. rewrite (Hpl x (or_introl eq_refl)) in D. discriminate.
    - assert (Hnn : forall x, In x S -> pord Bx (bits_of (e_label x)) <> None).
      { intros x Hx. apply pord_not_None; [apply Hpl; exact Hx|]. apply (above_tree _ S x Cex Dex Hx). }
      destruct (canon_node_inv _ _ _ _ _ Cex) as (a' & b' & -> & -> & W0 & C0 & Pa0 & Pb0 & Ca0 & Cb0 & Ele & Emde).
      pose proof (sub_pre_child Bx e S false a' _ Ca0 Pa0 Lex Dex (incl_appl _ (incl_refl _))) as Ha.
      pose proof (sub_pre_child Bx e S true b' _ Cb0 Pb0 Lex Dex (incl_appr _ (incl_refl _))) as Hb.
      destruct (node_finish rec l0 le0 mde0 (Some a') (Some b') false 0 s e W0 Hg (set_pre_below q Bx S Hso Hpl) Hne He Hnn
                  Ha Hb (Hrec Bx (prefixb_length _ _ Pex)) (conj (or_introl Ele) (or_introl Emde)))
        as (a2 & b2 & k' & EF & Emax & Emin & Ca & Cb & Na & Nb & Perm).
      eexists. exists k'. split; [exact EF|].
      split; [|split; [exact Pex | split; [exact Perm | split; [exact Emax | rewrite Emin; symmetry; exact Emde]]]].
      apply canon_onode; try assumption.
      + intros E. destruct (Na E). discriminate.
      + intros E. destruct (Nb E). discriminate.
  Qed.
End InsCases.

Section InsMain.
  Variable empty : nlabel.
  Hypothesis Ce : canonical empty = false.

  Theorem ins_spec : forall fuel q t s e,
    (257 <= fuel + length q)%nat -> 1 <= e -> good_set s -> eset_list s <> [] -> set_pre q (eset_list s) ->
    sub_pre q e t (eset_list s) ->
    exists r isn k, ins empty fuel t s e = Some (r, isn, k) /\ post q t (eset_list s) e r.
  Proof.
    induction fuel as [|f IH]; intros q t s e Hf He Hg Hne Hso Hpre.
    - exfalso. pose proof (q_le_256 q (eset_list s) Hne Hso). lia.
    - rewrite ins_unfold.
      assert (Hrec : forall B, (length q <= length B)%nat -> rec_ok (ins empty f) e B).
      { intros B HB dir t' s' Hg' Hne' Hso' Hpre'. apply IH; try assumption. rewrite app_length. cbn [length]. lia. }
      destruct t as [ex|]; unfold cur_node.
      + destruct (llen (get_longest_common_prefix empty (tlabel ex) (eset_lcp empty s)) <? llen (tlabel ex)) eqn:E.
        * apply N.ltb_lt in E.
          destruct (ins_some_split empty Ce (ins empty f) q s e He Hg Hso Hrec ex Hne Hpre E) as (n & r & k & En & EF & Hp).
          rewrite En. exists r, true, k. split; [exact EF | exact Hp].
        * apply N.ltb_ge in E.
          destruct (ins_some_descend empty Ce (ins empty f) q s e He Hg Hso Hrec ex Hne Hpre E) as (r & k & EF & Hp).
          exists r, false, k. split; [exact EF | exact Hp].
      + destruct (eset_list s) as [|x [|y r0]] eqn:ES; [congruence| |].
        * destruct (ins_none_single (ins empty f) q s e x ES Hso) as (k & EF & Hp).
          exists (Leaf (e_label x) (e_value x) e), true, k. split; [exact EF | exact Hp].
        * rewrite <- ES in Hso.
          destruct (ins_none_many empty Ce (ins empty f) q s e He Hg Hso Hrec x y r0 ES) as (r & k & EF & Hp).
          rewrite ES in Hp. exists r, true, k. split; [exact EF | exact Hp].
  Qed.
End InsMain.

From Akd Require Import InsertFacts.

Lemma sorted_lt_bits l : elabs_ok l -> same_len l -> sorted_lt l -> sorted_bits l.
Proof.
  intros Hok [len Hlen]. induction 1 as [|x l Hx Hs IH]; [constructor|].
  constructor.
  - intros y Hy. specialize (Hx y Hy). unfold lab_lt in Hx.
    destruct (Hok x (or_introl eq_refl)) as [Wx Cx]. destruct (Hok y (or_intror Hy)) as [Wy Cy].
    rewrite nl_cmp_spec in Hx by assumption. unfold shortlex_cmp in Hx.
    rewrite !length_bits_of in Hx by assumption. rewrite (Hlen x (or_introl eq_refl)), (Hlen y (or_intror Hy)) in Hx.
    rewrite Nat.compare_refl in Hx. exact Hx.
  - apply IH; [intros z Hz; apply Hok; right; exact Hz | intros z Hz; apply Hlen; right; exact Hz].
Qed.

(* a batch as the directory hands it to the tree: distinct 256-bit labels *)
Definition batch_ok (elems : list elem) : Prop :=
  elabs_ok elems /\ (forall x, In x elems -> llen (e_label x) = 256) /\ NoDup (map e_label elems).

Lemma eset_from_good elems : elems <> [] -> elabs_ok elems -> NoDup (map e_label elems) ->
  good_set (eset_from elems) /\ Permutation (eset_list (eset_from elems)) elems.
Proof.
  intros Hne Hok Hnd. destruct elems as [|x r] eqn:E; [congruence|]. rewrite <- E in *.
  unfold eset_from. rewrite E. rewrite <- E.
  destruct (forallb (fun y => llen (e_label y) =? llen (e_label x)) elems) eqn:Hall.
  - cbn [good_set eset_list]. split; [|apply sort_elems_perm].
    assert (Hok' : elabs_ok (sort_elems elems)) by (intros y Hy; apply Hok; apply sort_elems_in; exact Hy).
    assert (Hlen' : same_len (sort_elems elems)).
    { exists (llen (e_label x)). intros y Hy. apply (proj1 (sort_elems_in _ _)) in Hy. rewrite forallb_forall in Hall. apply N.eqb_eq. apply Hall. exact Hy. }
    split; [|exact Hlen']. apply sorted_lt_bits; try assumption. apply sort_elems_sorted. exact Hnd.
  - cbn [good_set eset_list]. split; [exact I | apply Permutation_refl].
Qed.

Definition root_inv (latest : N) (t : tree) : Prop := canon_root t /\ leaves_ok latest (leaves t).

Lemma leaves_ok_mono e e' ls : e <= e' -> leaves_ok e ls -> leaves_ok e' ls.
Proof. intros H L y Hy. destruct (L y Hy) as (A & B & C). repeat split; try assumption. lia. Qed.

Lemma dir_pre bound root S e :
  root_inv bound root -> bound <= e -> set_ok [] S ->
  (forall x y, In x S -> In y (leaves root) -> e_label x <> lf_label y) ->
  epochs_ok e (leaves root) /\ set_pre [] S /\ (forall x, In x S -> bits_of (e_label x) <> []) /\ apart S (leaves root).
Proof.
  intros [Hc Hl] Hb Hso Hdis. pose proof Hso as (Hok & Hlen & _). split; [|split; [|split]].
  - intros y Hy. destruct (Hl y Hy) as (_ & H1 & H2). split; [exact H1 | lia].
  - apply set_ok_pre. exact Hso.
  - intros x Hx E. apply (f_equal (@length bool)) in E.
    rewrite length_bits_of, (Hlen x Hx) in E by (apply Hok; exact Hx). discriminate.
  - apply apart_256; try assumption.
    + apply leaves_label_ok. apply wf_root_wfg. apply canon_root_wf. exact Hc.
    + intros y Hy. apply (Hl y Hy).
Qed.

Section InsRoot.
  Variable empty : nlabel.
  Hypothesis Ce : canonical empty = false.

  (* The root keeps its label and may have 0, 1 or 2 children: the walk starts with the second half of
     [ins] at the root.  The tree may already hold leaves of the epoch being inserted. *)
  Theorem ins_root_gen root s e :
    canon_root root -> epochs_ok e (leaves root) -> 1 <= e -> good_set s -> eset_list s <> [] ->
    set_pre [] (eset_list s) -> (forall x, In x (eset_list s) -> bits_of (e_label x) <> []) ->
    apart (eset_list s) (leaves root) ->
    exists r isn k, ins empty ins_fuel (Some root) s e = Some (r, isn, k) /\
                    canon_root r /\ Permutation (leaves r) (leaves root ++ map (lf_of e) (eset_list s)).
  Proof.
    intros Hc Hl He Hg Hne Hso Hnz Hdis. set (S := eset_list s) in *.
    destruct root as [|l le mde a b]; [destruct Hc|]. destruct Hc as (-> & Ca & Cb & Ele & Emde).
    rewrite ins_root_unfold.
    assert (Hnn : forall x, In x S -> pord (bits_of nl_root) (bits_of (e_label x)) <> None).
    { intros x Hx E. exact (Hnz x Hx (pord_None_prefix (bits_of nl_root) _ eq_refl E)). }
    assert (Hch : forall dir c, canon_child dir c -> incl (oleaves c) (leaves (Node nl_root le mde a b)) ->
                  sub_pre (bits_of nl_root ++ [dir]) e c (filter (side (bits_of nl_root) dir) S)).
    { intros dir [c|] Hc Hi; [|exact I]. destruct Hc as [Pc Cc]. exact (sub_pre_child _ e S dir c _ Cc Pc Hl Hdis Hi). }
    assert (Hrec : rec_ok (ins empty 299) e (bits_of nl_root)).
    { intros dir t' s' Hg' Hne' Hso2 Hpre'. apply (ins_spec empty Ce); try assumption. rewrite app_length. cbn [length]. lia. }
    destruct (node_finish (ins empty 299) nl_root le mde a b false 0 s e (proj1 nl_root_wf) Hg Hso Hne He Hnn
                (Hch false a Ca ltac:(destruct a; [apply incl_appl, incl_refl | intros ? []]))
                (Hch true b Cb ltac:(destruct b; [apply incl_appr, incl_refl | intros ? []]))
                Hrec (conj (or_introl Ele) (or_introl Emde)))
      as (a' & b' & k' & EF & _ & _ & Ca' & Cb' & _ & _ & Perm).
    eexists. exists false, k'. split; [exact EF|]. split; [|exact Perm].
    split; [reflexivity|]. split; [exact Ca'|]. split; [exact Cb'|]. split; reflexivity.
  Qed.

  Theorem ins_root_le latest root s e :
    root_inv latest root -> latest <= e -> 1 <= e -> good_set s -> eset_list s <> [] -> set_ok [] (eset_list s) ->
    (forall x y, In x (eset_list s) -> In y (leaves root) -> e_label x <> lf_label y) ->
    exists r isn k, ins empty ins_fuel (Some root) s e = Some (r, isn, k) /\
                    canon_root r /\ Permutation (leaves r) (leaves root ++ map (lf_of e) (eset_list s)).
  Proof.
    intros Hinv Hlt He Hg Hne Hso Hdis. destruct (dir_pre latest root _ e Hinv Hlt Hso Hdis) as (Hl & Hso' & Hnz & Hap).
    apply ins_root_gen; try assumption. apply Hinv.
  Qed.

  Theorem ins_root latest root s e :
    root_inv latest root -> latest < e -> good_set s -> eset_list s <> [] -> set_ok [] (eset_list s) ->
    (forall x y, In x (eset_list s) -> In y (leaves root) -> e_label x <> lf_label y) ->
    exists r isn k, ins empty ins_fuel (Some root) s e = Some (r, isn, k) /\
                    canon_root r /\ Permutation (leaves r) (leaves root ++ map (lf_of e) (eset_list s)).
  Proof. intros Hr Hlt. apply (ins_root_le latest root s e Hr); lia. Qed.
End InsRoot.

Section Batches.
  Variable empty : nlabel.
  Hypothesis Ce : canonical empty = false.

  Theorem batch_insert_gen root latest num elems :
    canon_root root -> epochs_ok (latest + 1) (leaves root) ->
    elabs_ok elems -> NoDup (map e_label elems) -> prefix_free elems ->
    (forall x, In x elems -> bits_of (e_label x) <> []) -> apart elems (leaves root) ->
    exists r num', batch_insert empty (root, latest, num) elems = Some (r, latest + 1, num') /\
                   canon_root r /\ Permutation (leaves r) (leaves root ++ map (lf_of (latest + 1)) elems).
  Proof.
    intros Hc Hl Hok Hnd Hpf Hnz Hdis. unfold batch_insert.
    destruct elems as [|x0 r0] eqn:EE.
    - exists root, num. split; [reflexivity|]. split; [exact Hc|]. cbn [map]. rewrite app_nil_r. apply Permutation_refl.
    - rewrite <- EE in *. assert (Hne : elems <> []) by (rewrite EE; discriminate).
      destruct (eset_from_good elems Hne Hok Hnd) as [Hg HP]. set (s := eset_from elems) in *.
      assert (HneS : eset_list s <> []) by (intros E0; rewrite E0 in HP; apply Permutation_nil in HP; congruence).
      destruct (eset_is_empty s) eqn:EIE; [apply eset_is_empty_iff in EIE; congruence|].
      destruct (ins_root_gen empty Ce root s (latest + 1) Hc Hl ltac:(lia) Hg HneS) as (r & isn & k & EI & Cr & Pr).
      + apply (set_pre_perm [] _ elems HP). exact (conj Hok (conj Hnd (conj Hpf (fun _ _ => eq_refl)))).
      + intros x Hx. apply Hnz. eapply Permutation_in; eassumption.
      + intros x y Hx Hy. apply Hdis; [eapply Permutation_in; eassumption | exact Hy].
      + rewrite EI. exists r, (num + k). split; [reflexivity|]. split; [exact Cr|].
        eapply Permutation_trans; [exact Pr|]. apply Permutation_app_head. apply Permutation_map. exact HP.
  Qed.

  (* [bound]: the newest leaf the tree may already hold - at most the epoch about to be inserted *)
  Theorem batch_insert_spec_gen root latest bound num elems :
    root_inv bound root -> bound <= latest + 1 -> batch_ok elems ->
    (forall x y, In x elems -> In y (leaves root) -> e_label x <> lf_label y) ->
    exists r num', batch_insert empty (root, latest, num) elems = Some (r, latest + 1, num') /\
                   root_inv (latest + 1) r /\
                   Permutation (leaves r) (leaves root ++ map (lf_of (latest + 1)) elems).
  Proof.
    intros Hinv Hbound Hb Hdis.
    assert (Hso0 : set_ok [] elems) by (destruct Hb as (B1 & B2 & B3); exact (conj B1 (conj B2 (conj B3 (fun _ _ => eq_refl))))).
    destruct (dir_pre bound root elems (latest + 1) Hinv Hbound Hso0 Hdis) as (Hl & Hso & Hnz & Hap).
    destruct (batch_insert_gen root latest num elems (proj1 Hinv) Hl (proj1 Hb) (proj1 (proj2 Hso)) (proj1 (proj2 (proj2 Hso))) Hnz Hap)
      as (r & num' & EB & Cr & Pr).
    exists r, num'. split; [exact EB|]. split; [|exact Pr]. split; [exact Cr|].
    intros y Hy. apply (Permutation_in _ Pr) in Hy. apply in_app_or in Hy. destruct Hy as [Hy|Hy].
    - exact (leaves_ok_mono bound _ _ Hbound (proj2 Hinv) y Hy).
    - apply in_map_iff in Hy. destruct Hy as (x & <- & Hx). cbn [lf_of lf_label lf_epoch].
      split; [apply Hb; exact Hx | lia].
  Qed.

  Theorem batch_insert_spec root latest num elems :
    root_inv latest root -> batch_ok elems ->
    (forall x y, In x elems -> In y (leaves root) -> e_label x <> lf_label y) ->
    exists r num', batch_insert empty (root, latest, num) elems = Some (r, latest + 1, num') /\
                   root_inv (latest + 1) r /\
                   Permutation (leaves r) (leaves root ++ map (lf_of (latest + 1)) elems).
  Proof. intros Hr. apply (batch_insert_spec_gen root latest latest num elems Hr). lia. Qed.

  Lemma batch_ok_perm b b' : Permutation b b' -> batch_ok b -> batch_ok b'.
  Proof.
    intros P (B1 & B2 & B3). apply Permutation_sym in P. split; [|split].
    - intros x Hx. apply B1. eapply Permutation_in; eassumption.
    - intros x Hx. apply B2. eapply Permutation_in; eassumption.
    - eapply Permutation_NoDup; [apply Permutation_sym, Permutation_map; exact P | exact B3].
  Qed.

  Lemma batch_ok_app_l b1 b2 : batch_ok (b1 ++ b2) -> batch_ok b1.
  Proof.
    intros (B1 & B2 & B3). rewrite map_app in B3. split; [|split].
    - intros x Hx. apply B1. apply in_or_app. left. exact Hx.
    - intros x Hx. apply B2. apply in_or_app. left. exact Hx.
    - apply NoDup_app_l in B3. exact B3.
  Qed.

  Lemma batch_ok_app b1 b2 : batch_ok (b1 ++ b2) -> batch_ok b1 /\ batch_ok b2 /\
    (forall x y, In x b1 -> In y b2 -> e_label x <> e_label y).
  Proof.
    intros Hb. split; [exact (batch_ok_app_l b1 b2 Hb)|]. split.
    - apply (batch_ok_app_l b2 b1). exact (batch_ok_perm _ _ (Permutation_app_comm b1 b2) Hb).
    - destruct Hb as (_ & _ & B3). rewrite map_app in B3.
      intros x y Hx Hy E. apply (NoDup_app_disj _ _ (e_label x) B3); [apply in_map; exact Hx | rewrite E; apply in_map; exact Hy].
  Qed.

  (* C14: one epoch inserted in two pieces (the epoch counter put back in between, which is how a
     caller inserts sub-batches of one epoch) gives the tree of the single batch *)
  Theorem batch_insert_split root latest bound num b1 b2 :
    root_inv bound root -> bound <= latest + 1 -> batch_ok (b1 ++ b2) ->
    (forall x y, In x (b1 ++ b2) -> In y (leaves root) -> e_label x <> lf_label y) ->
    exists r1 n1 r n2 n12,
      batch_insert empty (root, latest, num) b1 = Some (r1, latest + 1, n1) /\
      batch_insert empty (r1, latest, n1) b2 = Some (r, latest + 1, n2) /\
      batch_insert empty (root, latest, num) (b1 ++ b2) = Some (r, latest + 1, n12) /\
      root_inv (latest + 1) r1 /\
      (forall x y, In x b2 -> In y (leaves r1) -> e_label x <> lf_label y).
  Proof.
    intros Hinv Hbound Hb Hdis. destruct (batch_ok_app b1 b2 Hb) as (Hb1 & Hb2 & Hd12).
    destruct (batch_insert_spec_gen root latest bound num b1 Hinv Hbound Hb1) as (r1 & n1 & E1 & I1 & P1).
    { intros x y Hx. apply Hdis. apply in_or_app. left. exact Hx. }
    assert (Hdis2 : forall x y, In x b2 -> In y (leaves r1) -> e_label x <> lf_label y).
    { intros x y Hx Hy. apply (Permutation_in _ P1) in Hy. apply in_app_or in Hy. destruct Hy as [Hy|Hy].
      - apply Hdis; [apply in_or_app; right; exact Hx | exact Hy].
      - apply in_map_iff in Hy. destruct Hy as (z & <- & Hz). cbn [lf_of lf_label]. intros E. apply (Hd12 z x Hz Hx). symmetry. exact E. }
    destruct (batch_insert_spec_gen r1 latest (latest + 1) n1 b2 I1 ltac:(lia) Hb2 Hdis2) as (r & n2 & E2 & I2 & P2).
    destruct (batch_insert_spec_gen root latest bound num (b1 ++ b2) Hinv Hbound Hb Hdis) as (r12 & n12 & E12 & I12 & P12).
    exists r1, n1, r, n2, n12. split; [exact E1|]. split; [exact E2|]. split; [|split; [exact I1 | exact Hdis2]].
    rewrite E12. f_equal. f_equal. f_equal.
    apply canon_root_unique; [apply I12 | apply I2 |]. apply Permutation_map.
    eapply Permutation_trans; [exact P12|]. apply Permutation_sym. eapply Permutation_trans; [exact P2|].
    rewrite map_app, app_assoc. apply Permutation_app_tail. exact P1.
  Qed.

  (* ... and in any number of pieces *)
  Fixpoint run_pieces (root : tree) (latest num : N) (ps : list (list elem)) : option (tree * N) :=
    match ps with
    | [] => Some (root, num)
    | p :: rest =>
      match batch_insert empty (root, latest, num) p with
      | Some (r, _, n) => run_pieces r latest n rest
      | None => None
      end
    end.

  Theorem pieces_as_one : forall ps root latest bound num,
    root_inv bound root -> bound <= latest + 1 -> batch_ok (concat ps) ->
    (forall x y, In x (concat ps) -> In y (leaves root) -> e_label x <> lf_label y) ->
    exists r n n', run_pieces root latest num ps = Some (r, n) /\
                   batch_insert empty (root, latest, num) (concat ps) = Some (r, latest + 1, n').
  Proof.
    induction ps as [|p rest IH]; intros root latest bound num Hinv Hbound Hb Hdis.
    - cbn [run_pieces concat]. exists root, num, num. split; reflexivity.
    - cbn [run_pieces concat] in *.
      destruct (batch_insert_split root latest bound num p (concat rest) Hinv Hbound Hb Hdis)
        as (r1 & n1 & r & n2 & n12 & E1 & E2 & E12 & I1 & Hdis2).
      rewrite E1.
      destruct (batch_ok_app _ _ Hb) as (_ & Hb2 & _).
      destruct (IH r1 latest (latest + 1) n1 I1 ltac:(lia) Hb2 Hdis2) as (r' & n & n' & ER & EB).
      rewrite E2 in EB. injection EB as <- _.
      exists r, n, n12. split; [exact ER | exact E12].
  Qed.

  (* a publish history at the tree level: the batches of epochs 1, 2, ... *)
  Fixpoint run_batches (st : tree * N * N) (bs : list (list elem)) : option (tree * N * N) :=
    match bs with
    | [] => Some st
    | b :: rest => match batch_insert empty st b with Some st' => run_batches st' rest | None => None end
    end.
  Fixpoint hist_leaves (k : N) (bs : list (list elem)) : list leaf :=
    match bs with
    | [] => []
    | b :: rest => map (lf_of k) b ++ hist_leaves (k + 1) rest
    end.

  Lemma run_batches_spec : forall bs root latest num,
    root_inv latest root -> (forall b, In b bs -> batch_ok b) ->
    NoDup (map lf_label (leaves root) ++ map e_label (concat bs)) ->
    exists t num', run_batches (root, latest, num) bs = Some (t, latest + N.of_nat (length bs), num') /\
                   root_inv (latest + N.of_nat (length bs)) t /\
                   Permutation (leaves t) (leaves root ++ hist_leaves (latest + 1) bs).
  Proof.
    induction bs as [|b rest IH]; intros root latest num Hinv Hok Hnd.
    - exists root, num. cbn [run_batches length hist_leaves]. rewrite N.add_0_r, app_nil_r. split; [reflexivity|]. split; [exact Hinv | apply Permutation_refl].
    - cbn [run_batches]. cbn [concat] in Hnd. rewrite map_app in Hnd.
      assert (Hdis : forall x y, In x b -> In y (leaves root) -> e_label x <> lf_label y).
      { intros x y Hx Hy E. apply (NoDup_app_disj _ _ (lf_label y) Hnd).
        - apply in_map. exact Hy.
        - apply in_or_app. left. rewrite <- E. apply in_map. exact Hx. }
      destruct (batch_insert_spec root latest num b Hinv (Hok b (or_introl eq_refl)) Hdis) as (r & num1 & EB & Hinv1 & P1).
      rewrite EB.
      assert (Hnd1 : NoDup (map lf_label (leaves r) ++ map e_label (concat rest))).
      { eapply Permutation_NoDup; [|exact Hnd]. rewrite app_assoc. apply Permutation_app_tail.
        apply Permutation_sym. eapply Permutation_trans; [apply Permutation_map; exact P1|].
        rewrite map_app. apply Permutation_app_head. rewrite map_map. cbn [lf_of lf_label]. apply Permutation_refl. }
      destruct (IH r (latest + 1) num1 Hinv1 (fun b' Hb' => Hok b' (or_intror Hb')) Hnd1) as (t & num' & ER & Hinv2 & P2).
      exists t, num'. cbn [length hist_leaves]. rewrite Nat2N.inj_succ.
      replace (latest + N.succ (N.of_nat (length rest))) with (latest + 1 + N.of_nat (length rest)) by lia.
      split; [exact ER|]. split; [exact Hinv2|].
      eapply Permutation_trans; [exact P2|]. rewrite app_assoc. apply Permutation_app_tail. exact P1.
  Qed.
End Batches.

Section Final.
  Variable empty : nlabel.
  Hypothesis Ce : canonical empty = false.

  Lemma azks_new_inv : root_inv 0 empty_root.
  Proof.
    split; [|intros y []]. cbn [canon_root empty_root]. repeat split; reflexivity.
  Qed.

  (* C01: after any history of batches of distinct 256-bit labels, inserted by the model of
     batch_insert_nodes, the root hash is the hash of the specification trie over exactly the leaves
     the history prescribes (label, value, epoch of insertion) - for every hash configuration *)
  Theorem azks_history_is_spec (cfg : config) bs :
    (forall b, In b bs -> batch_ok b) -> NoDup (map e_label (concat bs)) ->
    exists t num, run_batches empty azks_new bs = Some (t, N.of_nat (length bs), num) /\
                  root_inv (N.of_nat (length bs)) t /\
                  Permutation (leaves t) (hist_leaves 1 bs) /\
                  root_hash cfg true t = spec_root_hash cfg (map sleaf_of (hist_leaves 1 bs)).
  Proof.
    intros Hok Hnd. unfold azks_new.
    destruct (run_batches_spec empty Ce bs empty_root 0 1 azks_new_inv Hok Hnd) as (t & num & ER & Hinv & HP).
    cbn [leaves empty_root app] in HP. rewrite N.add_0_l in ER, Hinv. change (0 + 1) with 1 in HP.
    exists t, num. split; [exact ER|]. split; [exact Hinv|]. split; [exact HP|].
    rewrite (canon_root_hash cfg t (proj1 Hinv)). unfold spec_root_hash, sleaves.
    rewrite (spec_root_perm _ _ (Permutation_map sleaf_of HP)). reflexivity.
  Qed.

  (* C14: the order of the elements inside each batch is irrelevant *)
  Theorem azks_history_order (cfg : config) bs bs' :
    (forall b, In b bs -> batch_ok b) -> NoDup (map e_label (concat bs)) ->
    Forall2 (@Permutation elem) bs bs' ->
    exists t t' num num', run_batches empty azks_new bs = Some (t, N.of_nat (length bs), num) /\
                          run_batches empty azks_new bs' = Some (t', N.of_nat (length bs), num') /\ t = t'.
  Proof.
    intros Hok Hnd HF.
    assert (H : (forall b, In b bs' -> batch_ok b) /\ Permutation (concat bs) (concat bs') /\ length bs' = length bs /\
                forall k, Permutation (hist_leaves k bs) (hist_leaves k bs')).
    { clear Hnd. induction HF as [|b b' r r' Hb _ IH]; [split; [intros ? []|]; split; [constructor|]; split; [reflexivity | constructor]|].
      destruct (IH (fun d Hd => Hok d (or_intror Hd))) as (I1 & I2 & I3 & I4). split; [|split; [|split]].
      - intros c [<-|Hc]; [exact (batch_ok_perm b b' Hb (Hok b (or_introl eq_refl))) | exact (I1 c Hc)].
      - cbn [concat]. apply Permutation_app; assumption.
      - cbn [length]. rewrite I3. reflexivity.
      - intros k. cbn [hist_leaves]. apply Permutation_app; [apply Permutation_map; exact Hb | apply I4]. }
    destruct H as (Hok' & Hcat & Hlen & Hhl).
    assert (Hnd' : NoDup (map e_label (concat bs'))) by (eapply Permutation_NoDup; [apply Permutation_map; exact Hcat | exact Hnd]).
    destruct (azks_history_is_spec cfg bs Hok Hnd) as (t & num & E1 & I1 & P1 & _).
    destruct (azks_history_is_spec cfg bs' Hok' Hnd') as (t' & num' & E2 & I2 & P2 & _).
    rewrite Hlen in E2. exists t, t', num, num'. split; [exact E1|]. split; [exact E2|].
    apply canon_root_unique; [apply I1 | apply I2 |]. apply Permutation_map.
    eapply Permutation_trans; [exact P1|]. eapply Permutation_trans; [apply Hhl|]. apply Permutation_sym. exact P2.
  Qed.
End Final.
