(* C17, `AzksElementSet::contains_prefix` (append_only_zks.rs): the unsorted form is exactly the
   bit-string statement "some element's label extends the prefix"; the binary-search form answers
   "yes" only with such an element, with a zero-length prefix over a non-empty set, or with an
   element shorter than the prefix that has the prefix's value bytes.  The index the search loop
   (ElemSet.bs_loop) arrives at always lies inside the slice, whatever the comparator. *)
From Coq Require Import List Bool Arith NArith Lia.
From Akd Require Import Bits NodeLabel NodeLabelFacts LabelOrder ElemSet ElemSetFacts.
Import ListNotations.

Section Search.
  Context {A : Type}.
  Variable f : A -> comparison.
  Variable d : A.
  Variable l : list A.

  Lemma binary_search_index_inside :
    l <> [] -> (bs_loop f d l (length l) 0 (length l) < length l)%nat.
  Proof.
    intros Hne. assert (1 <= length l)%nat by (destruct l; [congruence | cbn; lia]).
    pose proof (bs_loop_range f d l (length l) 0 (length l) ltac:(lia)). lia.
  Qed.

  Lemma binary_search_found_sound :
    fst (binary_search_by f d l) = true -> exists x, In x l /\ f x = Eq.
  Proof.
    intros H. assert (Hne : l <> []) by (intros E; rewrite E in H; discriminate).
    rewrite (binary_search_by_nonempty f d l Hne) in H. cbv zeta in H.
    destruct (f (nth _ l d)) eqn:Ef; try discriminate.
    eexists. split; [apply nth_In, (binary_search_index_inside Hne) | exact Ef].
  Qed.

  Lemma binary_search_index_le : (snd (binary_search_by f d l) <= length l)%nat.
  Proof.
    assert (Hd : l = [] \/ l <> []) by (destruct l; [left; reflexivity | right; discriminate]).
    destruct Hd as [E|Hne]; [rewrite E; cbn; lia|].
    pose proof (binary_search_index_inside Hne) as Hin.
    rewrite (binary_search_by_nonempty f d l Hne). cbv zeta.
    destruct (f (nth _ l d)); cbn [snd]; lia.
  Qed.
End Search.

Definition extends (p : nlabel) (x : elem) : bool := prefixb (bits_of p) (bits_of (e_label x)).

Theorem contains_prefix_unsorted p l :
  WF p -> (forall x, In x l -> WF (e_label x)) ->
  eset_contains_prefix (Unsorted l) p = existsb (extends p) l.
Proof.
  intros Hp Hl. cbn [eset_contains_prefix]. apply existsb_ext_in.
  intros x Hx. unfold extends. apply is_prefix_of_spec; [exact Hp | apply Hl; exact Hx].
Qed.

Lemma same_bytes_extends p x :
  lval (e_label x) = lval p -> (llen p <= llen (e_label x))%N -> extends p x = true.
Proof.
  intros Hv Hl. unfold extends, bits_of. rewrite Hv.
  apply prefixb_total with (c := val_bits (lval p)); try apply prefixb_firstn.
  rewrite !firstn_length. lia.
Qed.

Theorem contains_prefix_sorted_sound p l :
  WF p -> (forall x, In x l -> WF (e_label x)) ->
  eset_contains_prefix (BinarySearchable l) p = true ->
  (llen p = 0%N /\ l <> []) \/ existsb (extends p) l = true \/
  (exists x, In x l /\ lval (e_label x) = lval p /\ (llen (e_label x) < llen p)%N).
Proof.
  intros Hp Hl. cbn [eset_contains_prefix]. intros Hf.
  apply binary_search_found_sound in Hf. destruct Hf as [x [Hx Hc]].
  rewrite (is_prefix_of_spec p (e_label x) Hp (Hl x Hx)) in Hc. fold (extends p x) in Hc.
  destruct (N.eqb_spec (llen p) 0) as [Hz|Hz]; cbn [orb] in Hc.
  - left. split; [exact Hz | intros E; rewrite E in Hx; exact Hx].
  - right. destruct (extends p x) eqn:Ep.
    + left. apply existsb_exists. exists x. split; assumption.
    + right. apply bytes_cmp_eq in Hc. exists x. split; [exact Hx | split; [exact Hc|]].
      destruct (N.ltb_spec (llen (e_label x)) (llen p)) as [Hlt|Hge]; [exact Hlt|].
      rewrite (same_bytes_extends p x Hc Hge) in Ep. discriminate.
Qed.

(* where the code calls it (preloading: the elements are leaves, at least as long as any node
   label asked about) a "yes" means what the unsorted form means *)
Corollary contains_prefix_sorted_sound_leaves p l :
  WF p -> (forall x, In x l -> WF (e_label x)) ->
  (forall x, In x l -> (llen p <= llen (e_label x))%N) -> llen p <> 0%N ->
  eset_contains_prefix (BinarySearchable l) p = true ->
  eset_contains_prefix (Unsorted l) p = true.
Proof.
  intros Hp Hl Hlen Hnz Hs. rewrite contains_prefix_unsorted by assumption.
  destruct (contains_prefix_sorted_sound p l Hp Hl Hs) as [[Hz _]|[He|[x [Hx [_ Hlt]]]]].
  - contradiction.
  - exact He.
  - specialize (Hlen x Hx). lia.
Qed.

(* the third case is real: a prefix LONGER than an element with the same value bytes is reported
   as contained by the search form and not by the unsorted form (never asked by the code) *)
Example contains_prefix_forms_differ_on_longer_prefix :
  let x := El (NL (zeros 32) 8) [] in let p := NL (zeros 32) 9 in
  eset_contains_prefix (BinarySearchable [x]) p = true /\
  eset_contains_prefix (Unsorted [x]) p = false.
Proof. vm_compute. split; reflexivity. Qed.

(* Completeness of a search.  The loop only asks whether the comparator answers Greater, so it behaves as the
   partition-point search for "not Greater"; on a slice that the comparator splits into
   (not Greater)* Greater* with at least one Equal at the end of the first part, the search hits. *)
Section SearchComplete.
  Context {A : Type}.
  Variable f : A -> comparison.
  Variable d : A.
  Variable l : list A.
  Let p := fun x => match f x with Gt => false | _ => true end.
  Let g := fun x => if p x then Lt else Gt.

  Lemma bs_loop_only_asks_greater : forall fuel base size,
    bs_loop f d l fuel base size = bs_loop g d l fuel base size.
  Proof.
    induction fuel as [|fu IH]; intros base size; cbn [bs_loop]; [reflexivity|].
    destruct (size <=? 1)%nat; [reflexivity|].
    rewrite IH. unfold g, p. destruct (f (nth (base + Nat.div2 size) l d)); reflexivity.
  Qed.
End SearchComplete.

Theorem binary_search_complete {A} (f : A -> comparison) d l j :
  (1 <= j <= length l)%nat ->
  (forall n, (n < j)%nat -> f (nth n l d) <> Gt) ->
  (forall n, (j <= n)%nat -> (n < length l)%nat -> f (nth n l d) = Gt) ->
  f (nth (j - 1) l d) = Eq ->
  binary_search_by f d l = (true, (j - 1)%nat).
Proof.
  intros [Hj1 Hj2] Hlo Hhi Heq.
  assert (HB : boundary (fun x => not_gt (f x)) d l j).
  { split; [exact Hj2|]. split.
    - intros n Hn. specialize (Hlo n Hn). destruct (f (nth n l d)); [reflexivity | reflexivity | congruence].
    - intros n Hn1 Hn2. rewrite (Hhi n Hn1 Hn2). reflexivity. }
  assert (Hne : l <> []) by (intros E; rewrite E in Hj2; cbn in Hj2; lia).
  rewrite (binary_search_by_not_gt f d l j HB Hne), <- Nat.sub_1_r, Heq. reflexivity.
Qed.

(* contains_prefix: whenever the slice is split by the comparator of the code as above - the
   elements whose value bytes are greater than the prefix's and which do not extend it all come
   last, and the element just before them extends the prefix - the search form answers yes *)
Theorem contains_prefix_sorted_complete p l j :
  let f := fun c => if (llen p =? 0)%N || is_prefix_of p (e_label c) then Eq
                    else bytes_cmp (lval (e_label c)) (lval p) in
  (1 <= j <= length l)%nat ->
  (forall n, (n < j)%nat -> f (nth n l dummy_elem) <> Gt) ->
  (forall n, (j <= n)%nat -> (n < length l)%nat -> f (nth n l dummy_elem) = Gt) ->
  f (nth (j - 1) l dummy_elem) = Eq ->
  eset_contains_prefix (BinarySearchable l) p = true.
Proof.
  intros f Hj Hlo Hhi Heq. cbn [eset_contains_prefix]. fold f.
  rewrite (binary_search_complete f dummy_elem l j Hj Hlo Hhi Heq). reflexivity.
Qed.
