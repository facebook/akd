(* A canonical trie is determined by its leaves: it equals the specification tree (Spec.v) over the
   bit strings of its leaves.  Used to lift "insertion keeps the tree canonical and adds exactly
   the batch" to "the root hash is the hash of the canonical trie over the prescribed leaves". *)
From Coq Require Import List Bool Arith NArith Lia.
From Akd Require Import Bits NodeLabel NodeLabelFacts BitsLabel Tree TreeFacts Spec.
Import ListNotations.
Open Scope N_scope.

Definition sleaf_of (y : leaf) : sleaf := SL (bits_of (lf_label y)) (lf_value y) (lf_epoch y).
Definition sleaves (t : tree) : list sleaf := map sleaf_of (leaves t).

Fixpoint ann_ok (t : tree) : Prop :=
  match t with
  | Leaf _ _ _ => True
  | Node _ le mde (Some a) (Some b) =>
    le = N.max (t_last_epoch a) (t_last_epoch b) /\ mde = N.min (t_min_desc a) (t_min_desc b) /\ ann_ok a /\ ann_ok b
  | Node _ _ _ _ _ => False
  end.

Definition canon (t : tree) : Prop := wf_sub t = true /\ ann_ok t.

Lemma canon_label r : canon r -> WF (tlabel r) /\ canonical (tlabel r) = true.
Proof. intros [Hw _]. apply wf_sub_label, Hw. Qed.

Lemma fold_lcp_prefix : forall r acc, prefixb (fold_left (fun a y => lcp a (sl_bits y)) r acc) acc = true.
Proof.
  induction r as [|y r IH]; intros acc; cbn [fold_left]; [apply prefixb_refl|].
  eapply prefixb_trans; [apply IH | apply lcp_prefix_l].
Qed.
Lemma fold_lcp_prefix_in : forall r acc x, In x r -> prefixb (fold_left (fun a y => lcp a (sl_bits y)) r acc) (sl_bits x) = true.
Proof.
  induction r as [|y r IH]; intros acc x Hx; [destruct Hx|]. cbn [fold_left]. destruct Hx as [<-|Hx].
  - eapply prefixb_trans; [apply fold_lcp_prefix | apply lcp_prefix_r].
  - apply IH. exact Hx.
Qed.
Lemma fold_lcp_greatest : forall r acc c, prefixb c acc = true -> (forall x, In x r -> prefixb c (sl_bits x) = true) ->
  prefixb c (fold_left (fun a y => lcp a (sl_bits y)) r acc) = true.
Proof.
  induction r as [|y r IH]; intros acc c Hc Hr; cbn [fold_left]; [exact Hc|].
  apply IH; [apply lcp_greatest; [exact Hc | apply Hr; left; reflexivity] | intros x Hx; apply Hr; right; exact Hx].
Qed.

Lemma lcp_all_prefix S x : In x S -> prefixb (lcp_all S) (sl_bits x) = true.
Proof.
  destruct S as [|y r]; [intros []|]. cbn [lcp_all]. intros [<-|Hx]; [apply fold_lcp_prefix | apply fold_lcp_prefix_in; exact Hx].
Qed.
Lemma lcp_all_greatest S c : S <> [] -> (forall x, In x S -> prefixb c (sl_bits x) = true) -> prefixb c (lcp_all S) = true.
Proof.
  destruct S as [|y r]; [congruence|]. intros _ H. cbn [lcp_all].
  apply fold_lcp_greatest; [apply H; left; reflexivity | intros x Hx; apply H; right; exact Hx].
Qed.

Lemma lcp_all_app p A B :
  A <> [] -> B <> [] ->
  (forall x, In x A -> prefixb (p ++ [false]) (sl_bits x) = true) ->
  (forall x, In x B -> prefixb (p ++ [true]) (sl_bits x) = true) ->
  lcp_all (A ++ B) = p.
Proof.
  intros HA HB PA PB. destruct A as [|x0 A']; [congruence|]. destruct B as [|x1 B']; [congruence|].
  set (L := (x0 :: A') ++ x1 :: B').
  pose proof (lcp_all_prefix L x0 (or_introl eq_refl)) as L0.
  pose proof (lcp_all_prefix L x1 (in_elt x1 _ _)) as L1.
  pose proof (PA x0 (or_introl eq_refl)) as P0. pose proof (PB x1 (or_introl eq_refl)) as P1.
  apply prefixb_antisym.
  - rewrite <- (lcp_branch p false _ _ P0 P1). apply lcp_greatest; assumption.
  - apply lcp_all_greatest; [discriminate|]. intros z Hz. apply in_app_or in Hz.
    destruct Hz as [Hz|Hz]; eapply prefixb_app_l; [apply PA | apply PB]; exact Hz.
Qed.

Lemma fold_max_acc : forall S a, fold_left (fun a x => N.max a (sl_epoch x)) S a = N.max a (max_epoch S).
Proof.
  unfold max_epoch. induction S as [|x S IH]; intros a; cbn [fold_left]; [lia|].
  rewrite IH, (IH (N.max 0 (sl_epoch x))). set (F := fold_left _ S 0). clearbody F. lia.
Qed.
Lemma max_epoch_app A B : max_epoch (A ++ B) = N.max (max_epoch A) (max_epoch B).
Proof. unfold max_epoch at 1. rewrite fold_left_app, fold_max_acc. fold (max_epoch A). reflexivity. Qed.
Lemma max_epoch_single x : max_epoch [x] = sl_epoch x.
Proof. unfold max_epoch. cbn. lia. Qed.

Lemma fold_min_acc : forall S a, fold_left (fun a y => N.min a (sl_epoch y)) S a =
  match S with [] => a | _ => N.min a (min_epoch S) end.
Proof.
  induction S as [|x S IH]; intros a; cbn [fold_left]; [reflexivity|].
  rewrite IH. unfold min_epoch. destruct S as [|y S']; [reflexivity|].
  rewrite (IH (sl_epoch x)). unfold min_epoch. set (F := fold_left _ S' _). clearbody F. lia.
Qed.
Lemma min_epoch_cons x S : min_epoch (x :: S) = match S with [] => sl_epoch x | _ => N.min (sl_epoch x) (min_epoch S) end.
Proof. unfold min_epoch at 1. apply fold_min_acc. Qed.
Lemma min_epoch_app A B : A <> [] -> B <> [] -> min_epoch (A ++ B) = N.min (min_epoch A) (min_epoch B).
Proof.
  intros HA HB. induction A as [|x A IH]; [congruence|]. cbn [app]. rewrite !min_epoch_cons.
  destruct A as [|z A].
  - cbn [app]. destruct B; [congruence | reflexivity].
  - cbn [app] in *. rewrite IH by discriminate. lia.
Qed.
Lemma min_epoch_single x : min_epoch [x] = sl_epoch x.
Proof. reflexivity. Qed.

Lemma canon_leaf l v e : WF l -> canonical l = true -> canon (Leaf l v e).
Proof. intros W C. split; [|exact I]. cbn [wf_sub tlabel]. unfold WF in W. rewrite W, C. reflexivity. Qed.

Lemma canon_node l le mde a b :
  WF l -> canonical l = true -> canon a -> canon b ->
  pord (bits_of l) (bits_of (tlabel a)) = Some false -> pord (bits_of l) (bits_of (tlabel b)) = Some true ->
  le = N.max (t_last_epoch a) (t_last_epoch b) -> mde = N.min (t_min_desc a) (t_min_desc b) ->
  canon (Node l le mde (Some a) (Some b)).
Proof.
  intros Wl Cl [Wa Aa] [Wb Ab] Pa Pb EL EM. split.
  - cbn [wf_sub tlabel]. unfold WF in Wl. rewrite Wl, Cl, Pa, Pb, Wa, Wb. reflexivity.
  - cbn [ann_ok]. auto.
Qed.

Lemma canon_node_inv l le mde a b : canon (Node l le mde a b) ->
  exists a' b', a = Some a' /\ b = Some b' /\ WF l /\ canonical l = true /\
    pord (bits_of l) (bits_of (tlabel a')) = Some false /\ pord (bits_of l) (bits_of (tlabel b')) = Some true /\
    canon a' /\ canon b' /\
    le = N.max (t_last_epoch a') (t_last_epoch b') /\ mde = N.min (t_min_desc a') (t_min_desc b').
Proof.
  intros [Hw Ha]. destruct (wf_sub_node _ _ _ _ _ Hw) as (a' & b' & -> & -> & W & C & Pa & Pb & Wa & Wb).
  cbn [ann_ok] in Ha. destruct Ha as (Ele & Emde & Aa & Ab).
  exists a', b'. repeat split; assumption.
Qed.

Lemma canon_ind (P : tree -> Prop) :
  (forall l v e, WF l -> canonical l = true -> P (Leaf l v e)) ->
  (forall l a b, WF l -> canonical l = true ->
     pord (bits_of l) (bits_of (tlabel a)) = Some false -> pord (bits_of l) (bits_of (tlabel b)) = Some true ->
     canon a -> canon b -> P a -> P b ->
     P (Node l (N.max (t_last_epoch a) (t_last_epoch b)) (N.min (t_min_desc a) (t_min_desc b)) (Some a) (Some b))) ->
  forall t, canon t -> P t.
Proof.
  intros HL HN. induction t as [l v e|l le mde a b IHa IHb] using tree_ind'; intros C.
  - destruct C as [W _]. apply wf_sub_leaf in W. apply HL; apply W.
  - destruct (canon_node_inv _ _ _ _ _ C) as (a' & b' & -> & -> & Wl & Cl & Pa & Pb & Ca & Cb & -> & ->).
    apply HN; auto.
Qed.

Lemma wf_sub_leaves_nonempty t : wf_sub t = true -> leaves t <> [].
Proof.
  induction t as [l v e|l le mde a b IHa IHb] using tree_ind'; intros H; [discriminate|].
  destruct (wf_sub_node _ _ _ _ _ H) as (a' & b' & -> & -> & _ & _ & _ & _ & Wa & _).
  cbn [leaves]. intros E. apply app_eq_nil in E. destruct E as [E _]. exact (IHa a' eq_refl Wa E).
Qed.

Lemma sleaves_bit p d c :
  wf_sub c = true -> pord p (bits_of (tlabel c)) = Some d ->
  forall x, In x (sleaves c) -> bit_at (length p) x = d /\ prefixb (p ++ [d]) (sl_bits x) = true.
Proof.
  intros Hw Hp x Hx. unfold sleaves in Hx. apply in_map_iff in Hx. destruct Hx as (y & <- & Hy).
  assert (P : prefixb (p ++ [d]) (sl_bits (sleaf_of y)) = true).
  { cbn [sleaf_of sl_bits]. eapply prefixb_trans; [apply pord_prefix; exact Hp|].
    apply leaves_prefix; [apply wf_sub_wfg; exact Hw | exact Hy]. }
  split; [apply prefixb_snoc_nth; exact P | exact P].
Qed.

Definition osleaves (o : option tree) : list sleaf := match o with Some c => sleaves c | None => [] end.

Lemma sleaves_onode l le mde a b : sleaves (Node l le mde a b) = osleaves a ++ osleaves b.
Proof. unfold sleaves. cbn [leaves]. rewrite map_app. destruct a, b; reflexivity. Qed.

Lemma sleaves_nonempty t : wf_sub t = true -> sleaves t <> [].
Proof. intros H E. apply map_eq_nil in E. exact (wf_sub_leaves_nonempty t H E). Qed.

Lemma spec_sub_many f L : (2 <= length L)%nat ->
  spec_sub (Datatypes.S f) L =
  Some (Node (nl_of_bits (lcp_all L)) (max_epoch L) (min_epoch L)
             (spec_sub f (filter (fun x => negb (bit_at (length (lcp_all L)) x)) L))
             (spec_sub f (filter (bit_at (length (lcp_all L))) L))).
Proof. destruct L as [|x [|y r]]; cbn [length]; try lia. reflexivity. Qed.

Lemma app_two {A} (a b : list A) : a <> [] -> b <> [] -> (2 <= length (a ++ b))%nat.
Proof. destruct a, b; try congruence. intros _ _. rewrite app_length. cbn [length]. lia. Qed.

Lemma filter_bit_split k A B :
  (forall z, In z A -> bit_at k z = false) -> (forall z, In z B -> bit_at k z = true) ->
  filter (fun x => negb (bit_at k x)) (A ++ B) = A /\ filter (bit_at k) (A ++ B) = B.
Proof.
  intros HA HB. rewrite !filter_app.
  rewrite (filter_all _ A) by (intros z Hz; rewrite (HA z Hz); reflexivity).
  rewrite (filter_none _ B) by (intros z Hz; rewrite (HB z Hz); reflexivity).
  rewrite (filter_none _ A) by exact HA. rewrite (filter_all _ B) by exact HB.
  split; [apply app_nil_r | reflexivity].
Qed.

Theorem canon_spec_sub : forall t, canon t ->
  max_epoch (sleaves t) = t_last_epoch t /\ min_epoch (sleaves t) = t_min_desc t /\
  forall fuel, (257 <= fuel + length (bits_of (tlabel t)))%nat -> spec_sub fuel (sleaves t) = Some t.
Proof.
  induction t as [l v e|l le mde a b IHa IHb] using tree_ind'; intros Hc.
  - destruct (wfg_label _ (wf_sub_wfg _ (proj1 Hc))) as [W C]. cbn [tlabel] in W, C.
    split; [apply max_epoch_single|]. split; [reflexivity|].
    intros fuel Hf. pose proof (bits_le_256 l W). cbn [tlabel] in Hf. destruct fuel as [|fuel]; [lia|].
    cbn [sleaves leaves map sleaf_of lf_label lf_value lf_epoch spec_sub sl_bits sl_value sl_epoch].
    rewrite nl_of_bits_bits_of by assumption. reflexivity.
  - destruct (canon_node_inv _ _ _ _ _ Hc) as (a' & b' & -> & -> & W & C & Pa & Pb & Ca & Cb & Ele & Emde).
    destruct (IHa a' eq_refl Ca) as (Ma & Na & Sa). destruct (IHb b' eq_refl Cb) as (Mb & Nb & Sb).
    rewrite sleaves_onode. cbn [osleaves t_last_epoch t_min_desc tlabel].
    pose proof (sleaves_nonempty a' (proj1 Ca)) as NEa. pose proof (sleaves_nonempty b' (proj1 Cb)) as NEb.
    pose proof (sleaves_bit _ _ _ (proj1 Ca) Pa) as Ba. pose proof (sleaves_bit _ _ _ (proj1 Cb) Pb) as Bb.
    assert (Emax : max_epoch (sleaves a' ++ sleaves b') = le) by (rewrite max_epoch_app, Ma, Mb; symmetry; exact Ele).
    assert (Emin : min_epoch (sleaves a' ++ sleaves b') = mde) by (rewrite min_epoch_app, Na, Nb by assumption; symmetry; exact Emde).
    split; [exact Emax|]. split; [exact Emin|].
    intros fuel Hf. pose proof (bits_le_256 l W). destruct fuel as [|fuel]; [lia|].
    rewrite spec_sub_many by (apply app_two; assumption).
    rewrite (lcp_all_app (bits_of l) _ _ NEa NEb (fun x Hx => proj2 (Ba x Hx)) (fun x Hx => proj2 (Bb x Hx))).
    destruct (filter_bit_split (length (bits_of l)) _ _ (fun x Hx => proj1 (Ba x Hx)) (fun x Hx => proj1 (Bb x Hx))) as [-> ->].
    rewrite nl_of_bits_bits_of, Emax, Emin by assumption.
    rewrite Sa by (pose proof (pord_length _ _ _ Pa); lia). rewrite Sb by (pose proof (pord_length _ _ _ Pb); lia).
    reflexivity.
Qed.

Definition olast (o : option tree) : N := match o with Some c => t_last_epoch c | None => 0 end.
Definition omin (a b : option tree) : N :=
  match a, b with
  | Some x, Some y => N.min (t_min_desc x) (t_min_desc y)
  | Some x, None => t_min_desc x
  | None, Some y => t_min_desc y
  | None, None => 0
  end.
Definition canon_child (dir : bool) (o : option tree) : Prop :=
  match o with Some c => pord [] (bits_of (tlabel c)) = Some dir /\ canon c | None => True end.
Definition canon_root (t : tree) : Prop :=
  match t with
  | Node l le mde a b =>
    l = nl_root /\ canon_child false a /\ canon_child true b /\ le = N.max (olast a) (olast b) /\ mde = omin a b
  | Leaf _ _ _ => False
  end.

Lemma canon_slot_wf dir o : canon_child dir o -> wf_slot dir o.
Proof. destruct o as [c|]; [|exact id]. intros [P [W _]]. split; assumption. Qed.

Lemma canon_root_wf t : canon_root t -> wf_root t = true.
Proof.
  destruct t as [|l le mde a b]; [intros []|]. intros (-> & Ca & Cb & _). apply wf_root_slots. exists le, mde, a, b.
  split; [reflexivity|]. split; apply canon_slot_wf; assumption.
Qed.

Lemma spec_child dir o : canon_child dir o ->
  spec_sub 300 (osleaves o) = o /\ (forall z, In z (osleaves o) -> bit_at 0 z = dir) /\ max_epoch (osleaves o) = olast o.
Proof.
  destruct o as [c|]; [|intros _; split; [reflexivity | split; [intros z [] | reflexivity]]].
  intros [P Hc]. destruct (canon_spec_sub c Hc) as (M & _ & S). split; [apply S; lia|]. split; [|exact M].
  intros z Hz. exact (proj1 (sleaves_bit [] dir c (proj1 Hc) P z Hz)).
Qed.

Lemma omin_spec a b da db : canon_child da a -> canon_child db b -> min_epoch (osleaves a ++ osleaves b) = omin a b.
Proof.
  destruct a as [ca|], b as [cb|]; cbn [canon_child osleaves omin]; intros Ha Hb.
  - rewrite min_epoch_app by (apply sleaves_nonempty; first [apply Ha | apply Hb]).
    rewrite (proj1 (proj2 (canon_spec_sub ca (proj2 Ha)))), (proj1 (proj2 (canon_spec_sub cb (proj2 Hb)))). reflexivity.
  - rewrite app_nil_r. apply (canon_spec_sub ca (proj2 Ha)).
  - apply (canon_spec_sub cb (proj2 Hb)).
  - reflexivity.
Qed.

Theorem canon_root_spec t : canon_root t -> spec_root (sleaves t) = t.
Proof.
  destruct t as [|l le mde a b]; [intros []|]. intros (-> & Ca & Cb & -> & ->).
  destruct (spec_child false a Ca) as (Sa & Ba & Ma). destruct (spec_child true b Cb) as (Sb & Bb & Mb).
  unfold spec_root. rewrite sleaves_onode.
  destruct (filter_bit_split 0 _ _ Ba Bb) as [-> ->].
  rewrite Sa, Sb, max_epoch_app, Ma, Mb, (omin_spec a b _ _ Ca Cb). reflexivity.
Qed.

Corollary canon_root_hash cfg t : canon_root t -> root_hash cfg true t = spec_root_hash cfg (sleaves t).
Proof. intros H. unfold spec_root_hash. rewrite (canon_root_spec t H). reflexivity. Qed.

From Coq Require Import Permutation.

Lemma max_epoch_cons x S : max_epoch (x :: S) = N.max (sl_epoch x) (max_epoch S).
Proof. unfold max_epoch at 1. cbn [fold_left]. rewrite fold_max_acc. lia. Qed.

Lemma max_epoch_le S hi : (forall x, In x S -> sl_epoch x <= hi) -> max_epoch S <= hi.
Proof.
  induction S as [|x S IH]; intros H; [apply N.le_0_l|]. rewrite max_epoch_cons.
  pose proof (H x (or_introl eq_refl)). specialize (IH (fun y Hy => H y (or_intror Hy))). lia.
Qed.

Lemma min_epoch_bounds S lo hi : S <> [] -> (forall x, In x S -> lo <= sl_epoch x /\ sl_epoch x <= hi) ->
  lo <= min_epoch S /\ min_epoch S <= hi.
Proof.
  induction S as [|x S IH]; [congruence|]. intros _ H. rewrite min_epoch_cons.
  pose proof (H x (or_introl eq_refl)) as Hx. destruct S as [|y S']; [exact Hx|].
  specialize (IH ltac:(discriminate) (fun z Hz => H z (or_intror Hz))). lia.
Qed.

Lemma max_epoch_perm S S' : Permutation S S' -> max_epoch S = max_epoch S'.
Proof.
  induction 1 as [|x l l' _ IH|x y l|l l' l'' _ IH1 _ IH2]; [reflexivity| | |congruence].
  - rewrite !max_epoch_cons, IH. reflexivity.
  - rewrite !max_epoch_cons. lia.
Qed.

Lemma min_epoch_perm S S' : Permutation S S' -> min_epoch S = min_epoch S'.
Proof.
  induction 1 as [|x l l' HP IH|x y l|l l' l'' _ IH1 _ IH2]; [reflexivity| | |congruence].
  - rewrite !min_epoch_cons. destruct l as [|a l0]; destruct l' as [|b l0']; try reflexivity.
    + apply Permutation_nil in HP. discriminate.
    + apply Permutation_sym, Permutation_nil in HP. discriminate.
    + rewrite IH. reflexivity.
  - rewrite !min_epoch_cons. destruct l as [|a l0]; [lia|]. lia.
Qed.

Lemma lcp_all_perm S S' : Permutation S S' -> lcp_all S = lcp_all S'.
Proof.
  intros HP. destruct S as [|x r].
  - apply Permutation_nil in HP. subst. reflexivity.
  - assert (Hne : x :: r <> []) by discriminate.
    assert (Hne' : S' <> []) by (intros ->; apply Permutation_sym, Permutation_nil in HP; discriminate).
    apply prefixb_antisym.
    + apply lcp_all_greatest; [exact Hne'|]. intros z Hz. apply lcp_all_prefix. eapply Permutation_in; [apply Permutation_sym; exact HP | exact Hz].
    + apply lcp_all_greatest; [exact Hne|]. intros z Hz. apply lcp_all_prefix. eapply Permutation_in; [exact HP | exact Hz].
Qed.

Lemma spec_sub_perm : forall fuel S S', Permutation S S' -> spec_sub fuel S = spec_sub fuel S'.
Proof.
  induction fuel as [|f IH]; intros L L' HP; [reflexivity|].
  destruct (Nat.lt_ge_cases (length L) 2) as [Hl|Hl].
  - destruct L as [|x [|y r]]; cbn [length] in Hl; [| |lia].
    + apply Permutation_nil in HP. subst. reflexivity.
    + apply Permutation_length_1_inv in HP. subst. reflexivity.
  - rewrite !spec_sub_many by (rewrite <- ?(Permutation_length HP); exact Hl).
    rewrite (lcp_all_perm _ _ HP), (max_epoch_perm _ _ HP), (min_epoch_perm _ _ HP).
    f_equal. f_equal; apply IH, filter_perm, HP.
Qed.

Lemma canon_unique t t' : canon t -> canon t' -> Permutation (sleaves t) (sleaves t') -> t = t'.
Proof.
  intros C C' P. destruct (canon_spec_sub t C) as (_ & _ & S). destruct (canon_spec_sub t' C') as (_ & _ & S').
  specialize (S 300%nat ltac:(lia)). specialize (S' 300%nat ltac:(lia)).
  rewrite (spec_sub_perm 300 _ _ P) in S. congruence.
Qed.

Theorem spec_root_perm S S' : Permutation S S' -> spec_root S = spec_root S'.
Proof.
  intros HP. unfold spec_root. rewrite (max_epoch_perm _ _ HP), (min_epoch_perm _ _ HP).
  rewrite (spec_sub_perm 300 _ _ (filter_perm (fun x => negb (bit_at 0 x)) _ _ HP)).
  rewrite (spec_sub_perm 300 _ _ (filter_perm (bit_at 0) _ _ HP)). reflexivity.
Qed.

Corollary canon_root_unique t t' : canon_root t -> canon_root t' -> Permutation (sleaves t) (sleaves t') -> t = t'.
Proof. intros H H' P. rewrite <- (canon_root_spec t H), <- (canon_root_spec t' H'). apply spec_root_perm. exact P. Qed.
