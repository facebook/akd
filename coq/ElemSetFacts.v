(* Facts about the element-set model (C17, used by the insertion refinement): the binary search
   (core::slice::binary_search_by as ElemSet.v models it) finds the partition point of any
   partitioned list; a set sorted by its bit strings is partitioned by the direction its elements
   take below a common prefix; the longest common prefix of canonical labels is canonical. *)
From Coq Require Import List Bool Arith NArith Lia.
From Akd Require Import Bits NodeLabel NodeLabelFacts ElemSet.
Import ListNotations.
Local Open Scope nat_scope.

Lemma div2_bounds n : 2 <= n -> 1 <= Nat.div2 n /\ 2 * Nat.div2 n <= n.
Proof. intros Hn. pose proof (Nat.div2_odd n) as Ho. destruct (Nat.odd n); cbn [Nat.b2n] in Ho; lia. Qed.

Lemma bs_loop_range {A} (f : A -> comparison) d l : forall fuel base size, 1 <= size ->
  base <= bs_loop f d l fuel base size < base + size.
Proof.
  induction fuel as [|fu IH]; intros base size Hs; cbn [bs_loop]; [lia|].
  destruct (Nat.leb_spec size 1) as [Hle|Hgt]; [lia|].
  destruct (div2_bounds size Hgt) as [H1 H2].
  set (half := Nat.div2 size) in *.
  destruct (f (nth (base + half) l d)); [specialize (IH (base + half) (size - half)) ..| specialize (IH base (size - half))]; lia.
Qed.

Lemma binary_search_by_nonempty {A} (f : A -> comparison) d l : l <> [] ->
  binary_search_by f d l =
  let base := bs_loop f d l (length l) 0 (length l) in
  match f (nth base l d) with Eq => (true, base) | Lt => (false, S base) | Gt => (false, base) end.
Proof. destruct l; [congruence | reflexivity]. Qed.

Section BinarySearch.
  Context {A : Type}.
  Variable p : A -> bool.
  Variable d : A.
  Variable l : list A.

  Definition boundary (k : nat) : Prop :=
    k <= length l /\ (forall i, i < k -> p (nth i l d) = true) /\
    (forall i, k <= i -> i < length l -> p (nth i l d) = false).

  (* The loop only asks whether the comparator answers Greater.  With a comparator g that does so
     exactly where p fails, a window that contains the last p-element (index k - 1, or 0 when
     there is none) still contains it after a step: the window keeps at least its upper half. *)
  Lemma bs_loop_lands (g : A -> comparison) k :
    (forall x, g x = Gt <-> p x = false) -> boundary k ->
    forall fuel base size, size <= fuel -> 1 <= size ->
    base <= pred k < base + size -> base + size <= length l ->
    bs_loop g d l fuel base size = pred k.
  Proof.
    intros Hg (Hk & Ht & Hf). induction fuel as [|fuel IH]; intros base size Hfu Hs Hb Hlen; [lia|].
    cbn [bs_loop]. destruct (Nat.leb_spec size 1) as [Hle|Hgt]; [lia|].
    destruct (div2_bounds size Hgt) as [Hh1 Hh2].
    set (mid := base + Nat.div2 size). assert (Hml : mid < length l) by (subst mid; lia).
    destruct (p (nth mid l d)) eqn:Ep.
    - assert (Hmk : mid < k).
      { destruct (Nat.lt_ge_cases mid k) as [|Hge]; [assumption|]. rewrite (Hf mid Hge Hml) in Ep. discriminate. }
      assert (Eg : g (nth mid l d) <> Gt) by (intros Eg; apply Hg in Eg; congruence).
      destruct (g (nth mid l d)); [| |congruence]; apply IH; subst mid; lia.
    - assert (Hmk : k <= mid).
      { destruct (Nat.lt_ge_cases mid k) as [Hlt|]; [|assumption]. rewrite (Ht mid Hlt) in Ep. discriminate. }
      apply Hg in Ep. rewrite Ep. apply IH; subst mid; lia.
  Qed.

  Theorem binary_search_by_spec (g : A -> comparison) k :
    (forall x, g x = Gt <-> p x = false) -> boundary k -> l <> [] ->
    binary_search_by g d l =
    match g (nth (pred k) l d) with
    | Eq => (true, pred k) | Lt => (false, S (pred k)) | Gt => (false, pred k)
    end.
  Proof.
    intros Hg HB Hne. assert (Hlen : 1 <= length l) by (destruct l; [congruence | cbn; lia]).
    rewrite (binary_search_by_nonempty g d l Hne). cbv zeta.
    rewrite (bs_loop_lands g k Hg HB (length l) 0 (length l)) by (destruct HB; lia). reflexivity.
  Qed.

  Theorem partition_point_spec k : boundary k -> partition_point p d l = k.
  Proof.
    intros HB. pose proof HB as (Hk & Ht & Hf). unfold partition_point.
    destruct (length l) as [|n] eqn:El.
    - apply length_zero_iff_nil in El. rewrite El. cbn. lia.
    - assert (Hne : l <> []) by (intros E; rewrite E in El; discriminate).
      assert (Hg : forall x, (if p x then Lt else Gt) = Gt <-> p x = false)
        by (intros x; destruct (p x); split; congruence).
      rewrite (binary_search_by_spec _ k Hg HB Hne).
      destruct k as [|k]; cbn [pred].
      + rewrite (Hf 0) by lia. reflexivity.
      + rewrite (Ht k) by lia. reflexivity.
  Qed.
End BinarySearch.

Definition not_gt (c : comparison) : bool := match c with Gt => false | _ => true end.

Corollary binary_search_by_not_gt {A} (f : A -> comparison) d l k :
  boundary (fun x => not_gt (f x)) d l k -> l <> [] ->
  binary_search_by f d l =
  match f (nth (pred k) l d) with
  | Eq => (true, pred k) | Lt => (false, S (pred k)) | Gt => (false, pred k)
  end.
Proof. apply binary_search_by_spec. intros x. destruct (f x); split; discriminate || reflexivity. Qed.

Fixpoint prefix_closed {A} (p : A -> bool) (l : list A) : Prop :=
  match l with
  | [] => True
  | x :: r => (p x = false -> forallb (fun y => negb (p y)) r = true) /\ prefix_closed p r
  end.

Lemma boundary_app {A} (p : A -> bool) d (a b : list A) :
  (forall x, In x a -> p x = true) -> (forall x, In x b -> p x = false) -> boundary p d (a ++ b) (length a).
Proof.
  intros Ha Hb. split; [rewrite app_length; lia|]. split; intros i Hi.
  - rewrite app_nth1 by exact Hi. apply Ha, nth_In, Hi.
  - intros Hi2. rewrite app_nth2 by exact Hi. apply Hb, nth_In. rewrite app_length in Hi2. lia.
Qed.

Lemma prefix_closed_split {A} (p : A -> bool) (l : list A) :
  prefix_closed p l -> l = filter p l ++ filter (fun x => negb (p x)) l.
Proof.
  induction l as [|x r IH]; [reflexivity|]. intros [Hx Hr]. cbn [filter]. destruct (p x) eqn:E; cbn [negb app].
  - f_equal. apply IH, Hr.
  - specialize (Hx eq_refl). rewrite forallb_forall in Hx.
    rewrite (filter_all _ r Hx), (filter_none p r); [reflexivity|]. intros y Hy. apply negb_true_iff, Hx, Hy.
Qed.

Lemma prefix_closed_boundary {A} (p : A -> bool) d (l : list A) :
  prefix_closed p l ->
  boundary p d l (length (filter p l)) /\ filter p l = firstn (length (filter p l)) l /\
  filter (fun x => negb (p x)) l = skipn (length (filter p l)) l.
Proof.
  intros H. pose proof (prefix_closed_split p l H) as E.
  assert (Ha : forall x, In x (filter p l) -> p x = true) by (intros x Hx; apply filter_In in Hx; apply Hx).
  assert (Hb : forall x, In x (filter (fun x => negb (p x)) l) -> p x = false)
    by (intros x Hx; apply filter_In in Hx; apply negb_true_iff, Hx).
  set (a := filter p l) in *. set (b := filter (fun x => negb (p x)) l) in *. clearbody a b. subst l.
  split; [apply boundary_app; assumption|].
  split; symmetry; [apply firstn_app_exact | apply skipn_app_exact]; reflexivity.
Qed.

Lemma lex_between : forall a b x, length a = length x -> length b = length x ->
  lex_cmp a x <> Gt -> lex_cmp x b <> Gt -> prefixb (lcp a b) x = true.
Proof.
  induction a as [|ha a IH]; intros [|hb b] [|hx x] La Lb H1 H2; cbn [length] in *; try lia; try reflexivity.
  cbn [lcp]. destruct (Bool.eqb ha hb) eqn:E; [|reflexivity]. apply eqb_prop in E. subst hb.
  cbn [prefixb lex_cmp] in *.
  destruct ha, hx; cbn [Bool.eqb andb]; try (exfalso; (apply H1; reflexivity) || (apply H2; reflexivity));
    apply IH; try lia; assumption.
Qed.

Lemma lex_branch p x y : prefixb (p ++ [true]) x = true -> prefixb (p ++ [false]) y = true -> lex_cmp x y = Gt.
Proof.
  rewrite !prefixb_Prefix. intros [c ->] [c' ->]. rewrite <- !app_assoc, lex_cmp_app_same. reflexivity.
Qed.

Definition good_label (len : N) (x : elem) : Prop :=
  WF (e_label x) /\ canonical (e_label x) = true /\ llen (e_label x) = len.

Inductive sorted_bits : list elem -> Prop :=
| sb_nil : sorted_bits []
| sb_cons x l : (forall y, In y l -> lex_cmp (bits_of (e_label x)) (bits_of (e_label y)) = Lt) -> sorted_bits l -> sorted_bits (x :: l).

Lemma sorted_bits_tail x l : sorted_bits (x :: l) -> sorted_bits l.
Proof. inversion 1; assumption. Qed.

Lemma lex_cmp_antisym : forall a b, lex_cmp a b = CompOpp (lex_cmp b a).
Proof. induction a as [|x a IH]; intros [|y b]; cbn; try reflexivity. destruct x, y; cbn; auto. Qed.

(* the elements that continue with 0 after p; where every element properly extends p these are the
   ones the binary search of partition keeps on the left *)
Definition goes_left (p : bits) (x : elem) : bool :=
  match pord p (bits_of (e_label x)) with Some false => true | _ => false end.

Lemma sorted_prefix_closed p l :
  sorted_bits l -> (forall x, In x l -> pord p (bits_of (e_label x)) <> None) -> prefix_closed (goes_left p) l.
Proof.
  induction 1 as [|x l Hx Hs IH]; intros Hp; [exact I|].
  split; [|apply IH; intros y Hy; apply Hp; right; exact Hy].
  intros Hfalse. apply forallb_forall. intros y Hy. specialize (Hx y Hy). unfold goes_left in *.
  pose proof (Hp x (or_introl eq_refl)) as Nx. pose proof (Hp y (or_intror Hy)) as Ny.
  destruct (pord p (bits_of (e_label x))) as [[|]|] eqn:Ex; [|discriminate|congruence].
  destruct (pord p (bits_of (e_label y))) as [[|]|] eqn:Ey; [reflexivity| |congruence].
  (* y continues with 0 although x, before it, continues with 1 *)
  apply pord_prefix in Ex, Ey. rewrite (lex_branch p _ _ Ex Ey) in Hx. discriminate.
Qed.

Local Open Scope N_scope.

Lemma canonical_not_empty empty a : canonical empty = false -> canonical a = true -> nl_eqb a empty = false.
Proof.
  intros He Ha. apply nl_eqb_neq. congruence.
Qed.

Lemma glcp_good empty a b :
  WF a -> WF b -> canonical a = true -> canonical b = true -> canonical empty = false ->
  let r := get_longest_common_prefix empty a b in
  bits_of r = lcp (bits_of a) (bits_of b) /\ WF r /\ canonical r = true.
Proof.
  intros Ha Hb Ca Cb Ce. cbv zeta.
  destruct (glcp_spec empty a b Ha Hb) as (B & W & C); [|auto].
  rewrite (canonical_not_empty empty a Ce Ca), (canonical_not_empty empty b Ce Cb). reflexivity.
Qed.
