(* Facts about the marker-version model (C08). *)
From Coq Require Import List Bool Arith NArith ZArith Lia ZifyBool.
From Akd Require Import Marker.
Import ListNotations.
Open Scope N_scope.


Definition roundup (n i : N) : N := N.shiftl (N.lor (N.shiftr n i) 1) i.
Definition cut (x i : N) : N := N.shiftl (N.shiftr x i) i.

Lemma shiftl1_pow i : N.shiftl 1 i = 2 ^ i.
Proof. apply N.shiftl_1_l. Qed.

Lemma pow2_log2_bounds v : 1 <= v -> 1 <= 2 ^ N.log2 v /\ 2 ^ N.log2 v <= v.
Proof.
  intros Hv. destruct (N.log2_spec v ltac:(lia)) as [H1 _]. split; [|exact H1].
  apply N.lt_pred_le. apply N.neq_0_lt_0. apply N.pow_nonzero. discriminate.
Qed.

Lemma lookup_marker_bounds v : 1 <= v -> 1 <= lookup_marker v /\ lookup_marker v <= v.
Proof. unfold lookup_marker, marker_log2. rewrite shiftl1_pow. apply pow2_log2_bounds. Qed.

Lemma land_pow2_zero n i : (N.land n (2 ^ i) =? 0) = negb (N.testbit n i).
Proof.
  destruct (N.testbit n i) eqn:E; simpl.
  - apply N.eqb_neq. intros H. apply (f_equal (fun x => N.testbit x i)) in H.
    rewrite N.land_spec, E, N.pow2_bits_true, N.bits_0 in H. discriminate.
  - apply N.eqb_eq. apply N.bits_inj. intros k. rewrite N.land_spec, N.bits_0, N.pow2_bits_eqb.
    destruct (N.eqb_spec i k) as [->|]; [rewrite E|]; simpl; auto using andb_false_r.
Qed.

Lemma pow2_pred_ones i : 2 ^ i - 1 = N.ones i.
Proof. rewrite N.ones_equiv. now rewrite N.pred_sub. Qed.

Lemma ones_lor_pow i : N.lor (N.ones i) (2 ^ i) = N.ones (i + 1).
Proof.
  apply N.bits_inj. intros k. rewrite N.lor_spec, N.pow2_bits_eqb.
  destruct (N.ltb_spec k i) as [H|H].
  - rewrite !N.ones_spec_low by lia. reflexivity.
  - rewrite (N.ones_spec_high i k) by lia. destruct (N.eqb_spec i k) as [->|Hn]; simpl.
    + rewrite N.ones_spec_low by lia. reflexivity.
    + rewrite N.ones_spec_high by lia. reflexivity.
Qed.

Lemma testbit_cut x i k : N.testbit (cut x i) k = if k <? i then false else N.testbit x k.
Proof.
  unfold cut. destruct (N.ltb_spec k i) as [H|H].
  - apply N.shiftl_spec_low. exact H.
  - rewrite N.shiftl_spec_high' by exact H. rewrite N.shiftr_spec'. f_equal. lia.
Qed.

Lemma cut_le x i : cut x i <= x.
Proof.
  unfold cut. rewrite N.shiftl_mul_pow2, N.shiftr_div_pow2.
  assert (2 ^ i <> 0) by (apply N.pow_nonzero; lia). rewrite N.mul_comm. now apply N.mul_div_le.
Qed.

Lemma lor1_even x : N.testbit x 0 = false -> N.lor x 1 = x + 1.
Proof. destruct x as [|[p|p|]]; [reflexivity | discriminate | reflexivity | discriminate]. Qed.

Lemma testbit_roundup n i k :
  N.testbit (roundup n i) k = if k <? i then false else if k =? i then true else N.testbit n k.
Proof.
  unfold roundup. destruct (N.ltb_spec k i) as [H|H].
  - apply N.shiftl_spec_low. exact H.
  - rewrite N.shiftl_spec_high' by exact H. rewrite N.lor_spec, N.shiftr_spec'.
    replace (k - i + i) with k by lia. change 1 with (2 ^ 0). rewrite N.pow2_bits_eqb.
    destruct (N.eqb_spec k i) as [->|Hn].
    + rewrite N.sub_diag. simpl. apply orb_true_r.
    + destruct (N.eqb_spec 0 (k - i)); [lia|]. apply orb_false_r.
Qed.

Lemma roundup_arith n i : N.testbit n i = false -> roundup n i = (n / 2 ^ i + 1) * 2 ^ i.
Proof.
  intros H. unfold roundup. rewrite N.shiftl_mul_pow2, N.shiftr_div_pow2. f_equal.
  apply lor1_even. rewrite <- N.shiftr_div_pow2, N.shiftr_spec'. now rewrite N.add_0_l.
Qed.

Lemma roundup_gt n i : N.testbit n i = false -> n < roundup n i.
Proof.
  intros H. rewrite roundup_arith, N.add_1_r, N.mul_comm by exact H.
  apply N.mul_succ_div_gt, N.pow_nonzero. discriminate.
Qed.

Lemma cut_eq_roundup x n d :
  N.testbit x d = true -> (forall k, d < k -> N.testbit x k = N.testbit n k) -> cut x d = roundup n d.
Proof.
  intros Bx Hhi. apply N.bits_inj. intros k. rewrite testbit_cut, testbit_roundup.
  destruct (N.ltb_spec k d); [reflexivity|]. destruct (N.eqb_spec k d) as [->|]; [exact Bx|]. apply Hhi, N.le_neq. auto.
Qed.

Lemma bits_lt x n d : N.testbit x d = true -> N.testbit n d = false ->
  (forall k, d < k -> N.testbit x k = N.testbit n k) -> n < x.
Proof.
  intros Bx Bn Hhi. pose proof (cut_eq_roundup x n d Bx Hhi). pose proof (cut_le x d).
  pose proof (roundup_gt n d Bn). lia.
Qed.

Lemma high_diff x n : n < x ->
  let d := N.log2 (N.lxor x n) in
  N.testbit x d = true /\ N.testbit n d = false /\ (forall k, d < k -> N.testbit x k = N.testbit n k).
Proof.
  intros Hlt d.
  assert (Hz : N.lxor x n <> 0) by (intros H; apply N.lxor_eq in H; lia).
  assert (Hhi : forall k, d < k -> N.testbit x k = N.testbit n k).
  { intros k Hk. pose proof (N.bits_above_log2 (N.lxor x n) k Hk) as H. rewrite N.lxor_spec in H.
    now apply Bool.xorb_eq. }
  pose proof (N.bit_log2 _ Hz) as Hd. fold d in Hd. rewrite N.lxor_spec in Hd.
  destruct (N.testbit x d) eqn:Bx, (N.testbit n d) eqn:Bn; try discriminate Hd; [auto|].
  pose proof (bits_lt n x d Bn Bx (fun k Hk => eq_sym (Hhi k Hk))). lia.
Qed.

Lemma cut_next_bit x d : cut x d <> x -> exists j, j < d /\ N.testbit x j = true /\ cut x (j + 1) = cut x d.
Proof.
  intros Hne. assert (Hp : 2 ^ d <> 0) by (apply N.pow_nonzero; discriminate).
  pose proof (N.mod_pow2_bits_low x d) as Hlow. pose proof (N.mod_lt x _ Hp) as Hlt.
  (* r holds the bits of x below d; its top bit is the j asked for *)
  remember (x mod 2 ^ d) as r eqn:Er.
  assert (Hr : r <> 0).
  { intros ->. apply Hne. unfold cut. rewrite N.shiftl_mul_pow2, N.shiftr_div_pow2, N.mul_comm.
    rewrite (N.div_mod x _ Hp) at 2. rewrite <- Er. symmetry. apply N.add_0_r. }
  assert (Hj : N.log2 r < d) by (apply N.log2_lt_pow2; [apply N.neq_0_lt_0, Hr | exact Hlt]).
  exists (N.log2 r). split; [exact Hj|]. split; [rewrite <- (Hlow _ Hj); apply N.bit_log2, Hr|].
  apply N.bits_inj. intros k. rewrite !testbit_cut. destruct (N.ltb_spec k d) as [Hk|Hk].
  - destruct (N.ltb_spec k (N.log2 r + 1)) as [|Hjk]; [reflexivity|].
    rewrite <- (Hlow k Hk). apply N.bits_above_log2. clear -Hjk. lia.
  - rewrite (proj2 (N.ltb_ge k (N.log2 r + 1))); [reflexivity|]. clear -Hk Hj. lia.
Qed.


Lemma in_push_dedup l v x : In x (push_dedup l v) <-> In x l \/ v = x.
Proof.
  unfold push_dedup, last_opt. destruct (rev l) as [|y r] eqn:E.
  - rewrite in_app_iff. cbn [In]. tauto.
  - destruct (N.eqb_spec y v) as [<-|Hn]; [|rewrite in_app_iff; cbn [In]; tauto].
    assert (In y l) by (apply in_rev; rewrite E; now left). split; [tauto | intros [H0| <-]; assumption].
Qed.

Lemma in_Nrange x a len : In x (Nrange a len) <-> a <= x < a + N.of_nat len.
Proof.
  unfold Nrange. rewrite in_map_iff. split.
  - intros (k & <- & Hk). apply in_seq in Hk. lia.
  - intros H. exists (N.to_nat (x - a)). split; [lia|]. apply in_seq. lia.
Qed.

Lemma Nrange_S a len : Nrange a (S len) = a :: Nrange (a + 1) len.
Proof.
  unfold Nrange. cbn [seq map]. rewrite N.add_0_r, <- seq_shift, map_map. f_equal. apply map_ext. intros k. lia.
Qed.


Lemma past_step_eq s acc i : past_step s acc i =
  if N.testbit s i && negb (cut s (i + 1) =? 0) then push_dedup acc (cut s (i + 1)) else acc.
Proof.
  unfold past_step. cbv zeta. rewrite shiftl1_pow, land_pow2_zero, negb_involutive.
  rewrite pow2_pred_ones, ones_lor_pow, N.ldiff_ones_r. fold (cut s (i + 1)).
  destruct (N.testbit s i); reflexivity.
Qed.

(* what the bit loop of the past markers adds: s cut above each of its set bits, unless zero *)
Definition cuts (s : N) (l : list N) : list N :=
  filter (fun v => negb (v =? 0)) (map (fun i => cut s (i + 1)) (filter (N.testbit s) l)).

Lemma in_past_fold s x : forall l acc, In x (fold_left (past_step s) l acc) <-> In x acc \/ In x (cuts s l).
Proof.
  induction l as [|j l IH]; intros acc; cbn [fold_left]; [cbn; tauto|].
  rewrite IH, past_step_eq. unfold cuts. cbn [filter]. destruct (N.testbit s j); cbn [andb map filter]; [|tauto].
  destruct (cut s (j + 1) =? 0); cbn [negb In]; [tauto|]. rewrite in_push_dedup. tauto.
Qed.

Lemma in_cuts s l x : In x (cuts s l) <-> exists i, In i l /\ N.testbit s i = true /\ x = cut s (i + 1) /\ x <> 0.
Proof.
  unfold cuts. rewrite filter_In, in_map_iff, negb_true_iff, N.eqb_neq. split.
  - intros [(i & <- & Hi) Hnz]. apply filter_In in Hi. exists i. tauto.
  - intros (i & Hi & Hb & -> & Hnz). split; [|exact Hnz]. exists i. split; [reflexivity|]. apply filter_In. tauto.
Qed.

Lemma bit_lt_bitlen s i : N.testbit s i = true -> i < N.of_nat (bitlen s).
Proof.
  intros H. unfold bitlen. rewrite N2Nat.id.
  destruct (N.eq_dec s 0) as [->|Hs]; [rewrite N.bits_0 in H; discriminate|].
  rewrite N.size_log2 by exact Hs.
  destruct (N.leb_spec i (N.log2 s)); [lia|]. rewrite N.bits_above_log2 in H by lia. discriminate.
Qed.

Lemma in_past_markers s si x : In x (past_markers s si) <->
  (nthN SKIP si = x /\ nthN SKIP si <> s) \/ (2 ^ N.log2 s = x /\ 2 ^ N.log2 s <> s) \/
  In x (cuts s (rev (Nrange 0 (bitlen s)))).
Proof.
  unfold past_markers, marker_log2. cbv zeta. rewrite in_past_fold, shiftl1_pow.
  assert (P0 : In x (if nthN SKIP si =? s then [] else [nthN SKIP si]) <-> nthN SKIP si = x /\ nthN SKIP si <> s)
    by (destruct (N.eqb_spec (nthN SKIP si) s); cbn [In]; tauto).
  destruct (N.eqb_spec (2 ^ N.log2 s) s); cbn [negb]; rewrite ?in_push_dedup, P0; tauto.
Qed.

Lemma in_past_cut s si d : cut s d <> 0 -> cut s d = s \/ In (cut s d) (past_markers s si).
Proof.
  intros Hnz. destruct (N.eq_dec (cut s d) s) as [|Hne]; [now left|right].
  destruct (cut_next_bit s d Hne) as (j & _ & Bj & Hc). rewrite <- Hc in *.
  apply in_past_markers. right. right. apply in_cuts. exists j. repeat split; try assumption.
  apply in_rev. rewrite rev_involutive. apply in_Nrange. pose proof (bit_lt_bitlen s j Bj). lia.
Qed.
Lemma in_past_pow s si : 2 ^ N.log2 s = s \/ In (2 ^ N.log2 s) (past_markers s si).
Proof. destruct (N.eq_dec (2 ^ N.log2 s) s); [now left|right]. apply in_past_markers. tauto. Qed.
Lemma in_past_skip s si : nthN SKIP si = s \/ In (nthN SKIP si) (past_markers s si).
Proof. destruct (N.eq_dec (nthN SKIP si) s); [now left|right]. apply in_past_markers. tauto. Qed.


Lemma future_step_eq n E fv acc a : (forall k, a <= k -> N.testbit fv k = N.testbit n k) ->
  future_step n E (fv, acc) a =
  if N.testbit n a then (fv, acc) else (roundup n a, if roundup n a <=? E then acc ++ [roundup n a] else acc).
Proof.
  intros Hfv. unfold future_step. cbv zeta. rewrite shiftl1_pow, land_pow2_zero.
  destruct (N.testbit n a); cbn [negb]; [reflexivity|].
  replace (N.ldiff (N.lor fv (2 ^ a)) (2 ^ a - 1)) with (roundup n a); [reflexivity|].
  apply N.bits_inj. intros k. rewrite testbit_roundup, pow2_pred_ones, N.ldiff_spec, N.lor_spec, N.pow2_bits_eqb.
  destruct (N.ltb_spec k a) as [Hk|Hk].
  - rewrite N.ones_spec_low by lia. symmetry. apply andb_false_r.
  - rewrite N.ones_spec_high by lia. rewrite andb_true_r, (N.eqb_sym a k).
    destruct (N.eqb_spec k a); [symmetry; apply orb_true_r|]. rewrite orb_false_r. symmetry. apply Hfv. exact Hk.
Qed.

(* what the bit loop adds: n rounded up at each of its zero bits, unless beyond E *)
Definition ups (n E : N) (l : list N) : list N :=
  filter (fun v => v <=? E) (map (roundup n) (filter (fun i => negb (N.testbit n i)) l)).

Lemma future_fold_eq n E : forall len a fv acc, (forall k, a <= k -> N.testbit fv k = N.testbit n k) ->
  snd (fold_left (future_step n E) (Nrange a len) (fv, acc)) = acc ++ ups n E (Nrange a len).
Proof.
  induction len as [|len IH]; intros a fv acc Hfv; [symmetry; apply app_nil_r|].
  rewrite Nrange_S. cbn [fold_left]. rewrite future_step_eq by exact Hfv. unfold ups. cbn [filter].
  destruct (N.testbit n a); cbn [negb map filter].
  - apply IH. intros k Hk. apply Hfv. lia.
  - rewrite IH.
    + destruct (roundup n a <=? E); [rewrite <- app_assoc|]; reflexivity.
    + intros k Hk. rewrite testbit_roundup. destruct (N.ltb_spec k a); [lia|]. destruct (N.eqb_spec k a); [lia|reflexivity].
Qed.

Lemma in_ups n E l x : In x (ups n E l) <-> exists i, In i l /\ N.testbit n i = false /\ x = roundup n i /\ x <= E.
Proof.
  unfold ups. rewrite filter_In, in_map_iff, N.leb_le. split.
  - intros [(i & <- & Hi) HE]. apply filter_In in Hi. rewrite negb_true_iff in Hi. exists i. tauto.
  - intros (i & Hi & Hb & -> & HE). split; [|exact HE]. exists i. split; [reflexivity|]. apply filter_In.
    rewrite negb_true_iff. tauto.
Qed.

(* the skip list is a generated constant (GenConsts.v): its sortedness is checked by evaluation *)
Fixpoint sortedb (l : list N) : bool :=
  match l with
  | x :: ((y :: _) as r) => (x <? y) && sortedb r
  | _ => true
  end.

Lemma SKIP_sorted : sortedb SKIP = true.
Proof. vm_compute. reflexivity. Qed.
Lemma SKIP_head : nthN SKIP 0 = 1.
Proof. vm_compute. reflexivity. Qed.

Lemma sortedb_tail x l : sortedb (x :: l) = true -> sortedb l = true /\ Forall (fun y => x < y) l.
Proof.
  revert x; induction l as [|z l IH]; intros x H; [split; [reflexivity|constructor]|].
  cbn [sortedb] in H. apply andb_true_iff in H. destruct H as [H1 H2]. split; [exact H2|].
  constructor; [lia|]. destruct (IH z H2) as [_ IH2]. revert IH2. apply Forall_impl. intros y Hy. lia.
Qed.

Lemma firstn_count_le l x y : sortedb l = true ->
  (In y (firstn (count_le l x) l) <-> In y l /\ y <= x).
Proof.
  induction l as [|z l IH]; intros Hs; [cbn; tauto|].
  destruct (sortedb_tail z l Hs) as [Hs' Hlt]. rewrite Forall_forall in Hlt. cbn [count_le].
  destruct (N.ltb_spec x z) as [Hx|Hx]; cbn [firstn In]; [|rewrite (IH Hs')].
  - split; [tauto|]. intros [[<-|Hy] Hyx]; [lia | specialize (Hlt y Hy); lia].
  - split; [intros [<-|[H1 H2]]; auto | tauto].
Qed.

Lemma count_le_mono l n E : sortedb l = true -> n <= E -> (count_le l n <= count_le l E)%nat.
Proof.
  induction l as [|z l IH]; intros Hs H; [reflexivity|]. destruct (sortedb_tail z l Hs) as [Hs' _].
  cbn [count_le]. destruct (N.ltb_spec n z) as [|Hz]; [apply Nat.le_0_l|].
  rewrite (proj2 (N.ltb_ge E z) (N.le_trans _ _ _ Hz H)). apply le_n_S, IH; assumption.
Qed.

Lemma slice_spec l n E : sortedb l = true -> n <= E ->
  forall y, In y (firstn (count_le l E - count_le l n) (skipn (count_le l n) l)) <->
            In y l /\ n < y /\ y <= E.
Proof.
  induction l as [|z l IH]; intros Hs HnE y; [cbn; tauto|].
  destruct (sortedb_tail z l Hs) as [Hs' Hlt]. cbn [count_le]. destruct (N.ltb_spec n z) as [Hz|Hz].
  - (* the whole list lies above n *)
    rewrite Nat.sub_0_r. apply (firstn_count_le (z :: l) E y) in Hs. rewrite Forall_forall in Hlt.
    cbn [skipn]. rewrite Hs. split; [|tauto].
    intros [[<-|Hy] HE]; (split; [|split; [|exact HE]]); [now left | exact Hz | now right | specialize (Hlt y Hy); lia].
  - rewrite (proj2 (N.ltb_ge E z)) by lia. cbn [skipn Nat.sub]. rewrite (IH Hs' HnE). cbn [In].
    split; [tauto|]. intros ([<-|Hy] & H1 & H2); [lia | tauto].
Qed.

(* the element found by find_max_index is the largest skip-list element <= x *)
Lemma skipmax_greatest l x : sortedb l = true -> (1 <= count_le l x)%nat ->
  let m := nth (Nat.pred (count_le l x)) l 0 in
  In m l /\ m <= x /\ forall y, In y l -> y <= x -> y <= m.
Proof.
  cbv zeta. induction l as [|z l IH]; intros Hs Hc; [cbn in Hc; lia|].
  destruct (sortedb_tail z l Hs) as [Hs' Hlt]. rewrite Forall_forall in Hlt. cbn [count_le] in *.
  destruct (N.ltb_spec x z) as [Hx|Hx]; [lia|]. specialize (IH Hs'). cbn [Nat.pred].
  destruct (count_le l x) as [|c] eqn:Ec.
  - (* no element of the tail is <= x *)
    cbn [nth]. split; [now left|]. split; [exact Hx|]. intros y [<-|Hy] Hyx; [lia|].
    pose proof (proj2 (firstn_count_le l x y Hs') (conj Hy Hyx)) as F. rewrite Ec in F. destruct F.
  - destruct (IH ltac:(lia)) as (I1 & I2 & I3). cbn [Nat.pred nth] in *.
    split; [right; exact I1|]. split; [exact I2|].
    intros y [<-|Hy] Hyx; [specialize (Hlt _ I1); lia | exact (I3 y Hy Hyx)].
Qed.


Lemma pow_loop_pres is s0 acc x : In x acc -> In x (pow_loop is s0 acc).
Proof.
  revert acc; induction is as [|i is IH]; intros acc H; cbn [pow_loop]; auto.
  destruct (match s0 with Some y => y <=? N.shiftl 1 i | None => false end); auto.
  apply IH. apply in_or_app. now left.
Qed.

Lemma pow_loop_in len a s0 acc i :
  a <= i < a + N.of_nat len ->
  match s0 with Some y => 2 ^ i < y | None => True end ->
  In (2 ^ i) (pow_loop (Nrange a len) s0 acc).
Proof.
  revert a acc; induction len as [|len IH]; intros a acc Hi Hs; [lia|].
  rewrite Nrange_S. cbn [pow_loop]. rewrite shiftl1_pow.
  assert (Hbr : match s0 with Some y => y <=? 2 ^ a | None => false end = false).
  { destruct s0 as [y|]; [|reflexivity]. apply N.leb_gt.
    assert (2 ^ a <= 2 ^ i) by (apply N.pow_le_mono_r; lia). lia. }
  rewrite Hbr. destruct (N.eq_dec i a) as [->|Hne].
  - apply pow_loop_pres. apply in_or_app. right. now left.
  - apply IH; [lia|exact Hs].
Qed.


Lemma in_future_roundup n E ni ei i :
  n <> 0 -> i <= N.log2 n -> N.testbit n i = false -> roundup n i <= E ->
  In (roundup n i) (future_markers n E ni ei).
Proof.
  intros Hn Hi Hb HE. unfold future_markers. apply in_or_app. left. apply pow_loop_pres.
  rewrite future_fold_eq by reflexivity. apply in_ups. exists i. repeat split; try assumption.
  apply in_Nrange. unfold bitlen. rewrite N2Nat.id, N.size_log2 by exact Hn. lia.
Qed.

(* the skip-list elements that get_marker_versions appends: those of index in (ni, ei] *)
Definition skip_slice (ni ei : nat) : list N := firstn (S ei - S ni) (skipn (S ni) SKIP).

Lemma in_future_pow n E ni ei i :
  N.log2 n < i -> i <= N.log2 E ->
  match hd_error (skip_slice ni ei) with Some y => 2 ^ i < y | None => True end ->
  In (2 ^ i) (future_markers n E ni ei).
Proof.
  intros H1 H2 Hs. unfold future_markers. apply in_or_app. left. apply pow_loop_in; [|exact Hs].
  unfold marker_log2. lia.
Qed.

Lemma in_future_slice n E ni ei y : In y (skip_slice ni ei) -> In y (future_markers n E ni ei).
Proof. intros H. unfold future_markers. apply in_or_app. now right. Qed.

Lemma find_max_index_pos x : x <> 0 -> find_max_index x = Some (Nat.pred (count_le SKIP x)) /\ (1 <= count_le SKIP x)%nat.
Proof.
  intros Hx. unfold find_max_index. rewrite SKIP_head. destruct (N.ltb_spec x 1); [lia|]. split; [reflexivity|].
  pose proof SKIP_head as Hh. unfold nthN in Hh. destruct SKIP as [|z l] eqn:E; [discriminate|].
  simpl in Hh. subst z. cbn [count_le]. destruct (N.ltb_spec x 1); lia.
Qed.

Lemma slice_SKIP n E : n <> 0 -> n <= E ->
  forall y, In y (skip_slice (Nat.pred (count_le SKIP n)) (Nat.pred (count_le SKIP E))) <-> In y SKIP /\ n < y /\ y <= E.
Proof.
  intros Hn HnE y. unfold skip_slice. destruct (find_max_index_pos n Hn) as [_ Cn]. destruct (find_max_index_pos E ltac:(lia)) as [_ CE].
  rewrite !Nat.succ_pred by lia. apply slice_spec; [exact SKIP_sorted | exact HnE].
Qed.

(* Every x in (n, E] is "witnessed" by a future marker of n that the proof for x must show
   present: x itself or one of its past markers.  When x is no longer than n, the witness is n
   rounded up at the highest bit where the two differ, which is x cut below that bit. *)
Lemma witness_roundup n E ni ei x xi : n <> 0 -> n < x -> x <= E -> N.log2 x <= N.log2 n ->
  exists v, In v (future_markers n E ni ei) /\ n < v /\ v <= x /\ (v = x \/ In v (past_markers x xi)).
Proof.
  intros Hn Hlt HE Hlog. destruct (high_diff x n Hlt) as (Bx & Bn & Hhi). set (d := N.log2 (N.lxor x n)) in *.
  assert (Hd : d <= N.log2 x).
  { destruct (N.le_gt_cases d (N.log2 x)) as [H|H]; [exact H|]. rewrite N.bits_above_log2 in Bx by exact H. discriminate. }
  pose proof (cut_eq_roundup x n d Bx Hhi) as Hv. pose proof (roundup_gt n d Bn) as Hgt.
  pose proof (cut_le x d) as Hle. rewrite Hv in Hle. exists (roundup n d).
  repeat split; [|exact Hgt | exact Hle | rewrite <- Hv; apply in_past_cut; rewrite Hv; lia].
  apply in_future_roundup; [exact Hn | exact (N.le_trans _ _ _ Hd Hlog) | exact Bn | exact (N.le_trans _ _ _ Hle HE)].
Qed.

(* When x is longer than n, the witness is the power of two at the top bit of x, unless a
   skip-list element in (n, that power] stopped the loop over the powers; then it is the largest
   skip-list element <= x. *)
Lemma future_witness n E x :
  n <> 0 -> n < x -> x <= E ->
  exists v, In v (future_of n E) /\ n < v /\ v <= x /\ (v = x \/ In v (past_of x)).
Proof.
  intros Hn Hlt HE. assert (Hx : x <> 0) by lia. assert (HE0 : E <> 0) by lia.
  destruct (find_max_index_pos n Hn) as [Fn _]. destruct (find_max_index_pos x Hx) as [Fx Cx].
  destruct (find_max_index_pos E HE0) as [FE _]. unfold future_of, past_of. rewrite Fn, FE, Fx.
  destruct (N.le_gt_cases (N.log2 x) (N.log2 n)) as [Hlog|Hlog]; [apply witness_roundup; assumption|].
  pose proof (slice_SKIP n E Hn (N.le_trans _ _ _ (N.lt_le_incl _ _ Hlt) HE)) as Hsl.
  set (ni := Nat.pred (count_le SKIP n)) in *. set (ei := Nat.pred (count_le SKIP E)) in *.
  set (d := N.log2 x) in *.
  assert (Hpx : 2 ^ d <= x) by (apply N.log2_spec; lia).
  assert (Hnp : n < 2 ^ d) by (apply N.log2_lt_pow2; lia).
  destruct (match hd_error (skip_slice ni ei) with Some y => 2 ^ d <? y | None => true end) eqn:Ehd.
  { exists (2 ^ d). repeat split; [|exact Hnp | exact Hpx | apply in_past_pow].
    apply in_future_pow; [exact Hlog | apply N.log2_le_mono, HE |].
    destruct (hd_error (skip_slice ni ei)); [apply N.ltb_lt, Ehd | exact I]. }
  assert (Hs1in : exists s1, In s1 (skip_slice ni ei) /\ s1 <= 2 ^ d).
  { destruct (skip_slice ni ei) as [|s1 t]; [discriminate|]. exists s1. split; [now left | apply N.ltb_ge, Ehd]. }
  destruct Hs1in as (s1 & Hs1in & Hs1).
  apply Hsl in Hs1in. destruct Hs1in as (S1 & S2 & _).
  destruct (skipmax_greatest SKIP x SKIP_sorted Cx) as (K1 & K2 & K3). fold (nthN SKIP (Nat.pred (count_le SKIP x))) in *.
  pose proof (K3 s1 S1 (N.le_trans _ _ _ Hs1 Hpx)) as K4. pose proof (N.lt_le_trans _ _ _ S2 K4) as K5.
  exists (nthN SKIP (Nat.pred (count_le SKIP x))).
  repeat split; [|exact K5 | exact K2 | apply in_past_skip].
  apply in_future_slice, Hsl. repeat split; [exact K1 | exact K5 | exact (N.le_trans _ _ _ K2 HE)].
Qed.

(* C08, history vs history: a proof with latest version n (future markers of n shown absent)
   and a proof for a range [s', m] with m > n (versions s'..m and the past markers of s' shown
   present) contradict each other on some version v. *)
Theorem hist_hist_conflict E n m s' :
  1 <= n -> n < m -> m <= E -> 1 <= s' -> s' <= m ->
  exists v, In v (future_of n E) /\ ((s' <= v /\ v <= m) \/ In v (past_of s')).
Proof.
  intros Hn Hnm HmE Hs Hsm. destruct (N.ltb_spec n s') as [Hlt|Hge].
  - destruct (future_witness n E s' ltac:(lia) Hlt ltac:(lia)) as (v & V1 & V2 & V3 & V4).
    exists v. split; [exact V1|]. destruct V4 as [V4|V4]; [left; lia|right; exact V4].
  - destruct (future_witness n E m ltac:(lia) Hnm HmE) as (v & V1 & V2 & V3 & _).
    exists v. split; [exact V1|]. left. lia.
Qed.

(* the next version is always a future marker: dropping the newest entry is detected *)
Lemma next_is_future n E : 1 <= n -> n + 1 <= E -> In (n + 1) (future_of n E).
Proof.
  intros Hn HE. destruct (future_witness n E (n + 1) ltac:(lia) ltac:(lia) HE) as (v & V1 & V2 & V3 & _).
  assert (v = n + 1) by lia. subst. exact V1.
Qed.

(* lookup (version m) vs complete history (latest n), m < n: the lookup shows stale(m) absent,
   the history shows stale(v-1) present for every v in [2, n] - and m is such a v-1, which is all
   that is stated here *)
Theorem lookup_lt_conflict n m : 1 <= m -> m < n -> exists v, 2 <= v /\ v <= n /\ v - 1 = m.
Proof. intros. exists (m + 1). lia. Qed.

Lemma memN_In x l : memN x l = true <-> In x l.
Proof.
  unfold memN. rewrite existsb_exists. split.
  - intros (v & Hv & Ev). apply N.eqb_eq in Ev. subst. exact Hv.
  - intros H. exists x. split; [exact H | apply N.eqb_refl].
Qed.

(* lookup (version m > n) vs history with latest n: outside class K1 the versions the lookup
   shows present (m and its marker) meet the versions the history shows absent *)
Theorem lookup_gt_conflict E n m :
  n < m -> m <= E -> K1_class E n m = false ->
  exists v, In v (future_of n E) /\ (v = m \/ v = lookup_marker m).
Proof.
  intros H1 H2 HK. unfold K1_class in HK. rewrite (proj2 (N.ltb_lt n m) H1), (proj2 (N.leb_le m E) H2) in HK.
  cbn [andb] in HK. apply andb_false_iff in HK. destruct HK as [HK|HK]; apply negb_false_iff, memN_In in HK; eauto.
Qed.

Lemma K1_witness : K1_class 7 4 7 = true.
Proof. vm_compute. reflexivity. Qed.

(* the class is not hit by the immediate successor: a lookup for n+1 always conflicts *)
Lemma K1_not_successor E n : 1 <= n -> n + 1 <= E -> K1_class E n (n + 1) = false.
Proof.
  intros Hn HE. unfold K1_class. rewrite (proj2 (memN_In _ _) (next_is_future n E Hn HE)).
  cbn [negb]. rewrite andb_false_r. reflexivity.
Qed.
