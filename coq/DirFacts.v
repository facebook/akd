(* Facts about the directory-level model: the list of value states, what publish, lookup, key_history and
   audit return (C01-C04, C11), tombstoning (C20). *)
From Coq Require Import List Bool Arith NArith Lia.
From Akd Require Import NodeLabel NodeLabelFacts ElemSet Hashing Tree TreeComplete Insert Marker Directory Verify.
Import ListNotations.
Open Scope N_scope.

Definition sel (u : bytes) (e : N) (s : vrec) : bool := bytes_eqb (vr_user s) u && (vr_epoch s <=? e).

Lemma sel_spec u e s : sel u e s = true <-> vr_user s = u /\ vr_epoch s <= e.
Proof. unfold sel. rewrite andb_true_iff, bytes_eqb_eq, N.leb_le. reflexivity. Qed.

Lemma sel_bump u E s : vr_epoch s <= E -> sel u (E + 1) s = sel u E s.
Proof. intros H. unfold sel. f_equal. apply eq_true_iff_eq. rewrite !N.leb_le. lia. Qed.

Definition lstep (u : bytes) (e : N) (acc : option vrec) (s : vrec) : option vrec :=
  if sel u e s then match acc with Some a => if vr_epoch a <=? vr_epoch s then Some s else acc | None => Some s end else acc.

Lemma latest_state_fold sts u e : latest_state sts u e = fold_left (lstep u e) sts None.
Proof. reflexivity. Qed.

Lemma latest_state_snoc sts x u e : latest_state (sts ++ [x]) u e = lstep u e (latest_state sts u e) x.
Proof. rewrite !latest_state_fold, fold_left_app. reflexivity. Qed.

Lemma latest_state_spec sts u e :
  match latest_state sts u e with
  | Some s => In s sts /\ sel u e s = true /\ forall s', In s' sts -> sel u e s' = true -> vr_epoch s' <= vr_epoch s
  | None => forall s', In s' sts -> sel u e s' = false
  end.
Proof.
  induction sts as [|x sts IH] using rev_ind; [intros s' []|]. rewrite latest_state_snoc. unfold lstep.
  destruct (sel u e x) eqn:Sx.
  - destruct (latest_state sts u e) as [a|].
    + destruct IH as (Ha & Sa & Hmax). destruct (N.leb_spec (vr_epoch a) (vr_epoch x)) as [Hle|Hgt].
      * split; [apply in_or_app; right; left; reflexivity|]. split; [exact Sx|]. intros s' Hs' Ss'. apply in_app_or in Hs'.
        destruct Hs' as [Hs'|[<-|[]]]; [exact (N.le_trans _ _ _ (Hmax s' Hs' Ss') Hle) | apply N.le_refl].
      * split; [apply in_or_app; left; exact Ha|]. split; [exact Sa|]. intros s' Hs' Ss'. apply in_app_or in Hs'.
        destruct Hs' as [Hs'|[<-|[]]]; [exact (Hmax s' Hs' Ss') | apply N.lt_le_incl; exact Hgt].
    + split; [apply in_or_app; right; left; reflexivity|]. split; [exact Sx|]. intros s' Hs' Ss'. apply in_app_or in Hs'.
      destruct Hs' as [Hs'|[<-|[]]]; [rewrite (IH s' Hs') in Ss'; discriminate | apply N.le_refl].
  - destruct (latest_state sts u e) as [a|].
    + destruct IH as (Ha & Sa & Hmax). split; [apply in_or_app; left; exact Ha|]. split; [exact Sa|]. intros s' Hs' Ss'. apply in_app_or in Hs'.
      destruct Hs' as [Hs'|[<-|[]]]; [exact (Hmax s' Hs' Ss') | congruence].
    + intros s' Hs'. apply in_app_or in Hs'. destruct Hs' as [Hs'|[<-|[]]]; [exact (IH s' Hs') | exact Sx].
Qed.

Lemma latest_state_max sts u e s : latest_state sts u e = Some s ->
  In s sts /\ vr_user s = u /\ vr_epoch s <= e /\
  forall s', In s' sts -> vr_user s' = u -> vr_epoch s' <= e -> vr_epoch s' <= vr_epoch s.
Proof.
  intros H. pose proof (latest_state_spec sts u e) as S. rewrite H in S. destruct S as (Hin & Hsel & Hmax).
  apply sel_spec in Hsel. destruct Hsel as [Hu He]. repeat split; try assumption.
  intros s' Hs' Hu' He'. apply (Hmax s' Hs'). apply sel_spec. split; assumption.
Qed.

Lemma latest_state_some sts u e x : In x sts -> vr_user x = u -> vr_epoch x <= e -> latest_state sts u e <> None.
Proof.
  intros Hx Hu He H. pose proof (latest_state_spec sts u e) as S. rewrite H in S.
  pose proof (S x Hx) as Sx. rewrite (proj2 (sel_spec u e x) (conj Hu He)) in Sx. discriminate.
Qed.

Lemma in_insert_desc x s l : In x (insert_desc s l) <-> In x (s :: l).
Proof.
  induction l as [|y l IH]; cbn [insert_desc]; [reflexivity|].
  destruct (vr_epoch y <=? vr_epoch s); [reflexivity|]. cbn [In] in *. rewrite IH. tauto.
Qed.

Lemma user_history_filter sts u e : user_history sts u e = fold_right insert_desc [] (filter (sel u e) sts).
Proof.
  unfold user_history. induction sts as [|s sts IH]; [reflexivity|]. cbn [fold_right filter]. fold (sel u e s).
  destruct (sel u e s); cbn [fold_right]; rewrite IH; reflexivity.
Qed.

Lemma in_user_history sts u e x : In x (user_history sts u e) <-> In x sts /\ vr_user x = u /\ vr_epoch x <= e.
Proof.
  rewrite user_history_filter, <- sel_spec, <- filter_In. induction (filter (sel u e) sts) as [|s l IH]; cbn [fold_right]; [reflexivity|].
  rewrite in_insert_desc. cbn [In]. rewrite IH. reflexivity.
Qed.

Definition desc_sorted (l : list vrec) : Prop :=
  match l with [] => True | d0 :: r => forall x, In x r -> vr_epoch x <= vr_epoch d0 end.

Lemma user_history_sorted sts u e : desc_sorted (user_history sts u e).
Proof.
  unfold user_history. induction sts as [|s sts IH]; cbn [fold_right]; [exact I|].
  destruct (bytes_eqb (vr_user s) u && (vr_epoch s <=? e)); [|exact IH].
  destruct (fold_right _ [] sts) as [|y l]; cbn [insert_desc desc_sorted] in *; [intros x []|].
  destruct (N.leb_spec (vr_epoch y) (vr_epoch s)) as [Hle|Hgt]; cbn [desc_sorted].
  - intros x [<-|Hx]; [exact Hle | exact (N.le_trans _ _ _ (IH x Hx) Hle)].
  - intros x Hx. apply in_insert_desc in Hx. destruct Hx as [<-|Hx]; [apply N.lt_le_incl; exact Hgt | exact (IH x Hx)].
Qed.

Lemma latest_in_history sts u e s : latest_state sts u e = Some s -> In s (user_history sts u e).
Proof. intros H. apply in_user_history. destruct (latest_state_max _ _ _ _ H) as (H1 & H2 & H3 & _). auto. Qed.

Lemma latest_is_head sts u e d0 r :
  (forall s s', In s sts -> In s' sts -> vr_user s = vr_user s' -> vr_epoch s = vr_epoch s' -> s = s') ->
  user_history sts u e = d0 :: r -> latest_state sts u e = Some d0.
Proof.
  intros Hdist Hh. assert (H0 : In d0 (user_history sts u e)) by (rewrite Hh; left; reflexivity).
  apply in_user_history in H0. destruct H0 as (Hin0 & Hu0 & He0).
  destruct (latest_state sts u e) as [s|] eqn:El; [|exfalso; exact (latest_state_some sts u e d0 Hin0 Hu0 He0 El)].
  destruct (latest_state_max _ _ _ _ El) as (Hin & Hu & He & Hmax). f_equal. apply Hdist; [exact Hin | exact Hin0 | congruence|].
  pose proof (latest_in_history _ _ _ _ El) as Hs. rewrite Hh in Hs. pose proof (user_history_sorted sts u e) as Hsort. rewrite Hh in Hsort.
  destruct Hs as [<-|Hs]; [reflexivity|]. apply N.le_antisymm; [exact (Hsort s Hs) | exact (Hmax d0 Hin0 Hu0 He0)].
Qed.

Lemma insert_desc_app s : forall A B, (forall x, In x A -> vr_epoch s < vr_epoch x) -> insert_desc s (A ++ B) = A ++ insert_desc s B.
Proof.
  induction A as [|a A IH]; intros B H; [reflexivity|]. cbn [app insert_desc].
  assert (E : (vr_epoch a <=? vr_epoch s) = false) by (apply N.leb_gt; apply H; left; reflexivity). rewrite E.
  f_equal. apply IH. intros x Hx. apply H. right. exact Hx.
Qed.

Lemma user_history_app sts news u E :
  (forall s, In s sts -> vr_epoch s <= E) -> (forall n, In n news -> vr_epoch n = E + 1) ->
  user_history (sts ++ news) u (E + 1) = user_history news u (E + 1) ++ user_history sts u E.
Proof.
  intros Hs Hn. rewrite !user_history_filter, filter_app, fold_right_app.
  assert (Ef : filter (sel u (E + 1)) sts = filter (sel u E) sts) by (apply filter_ext_in; intros s Hin; apply sel_bump, Hs, Hin).
  rewrite Ef. clear Ef. set (H := fold_right insert_desc [] (filter (sel u (E + 1)) news)).
  assert (HH : forall x, In x H -> vr_epoch x = E + 1).
  { unfold H. rewrite <- user_history_filter. intros x Hx. apply in_user_history in Hx. apply Hn. apply Hx. }
  assert (Hold : forall x, In x (filter (sel u E) sts) -> vr_epoch x <= E) by (intros x Hx; apply filter_In in Hx; apply Hs, Hx).
  revert Hold. induction (filter (sel u E) sts) as [|s old IH]; intros Hold; cbn [fold_right]; [rewrite app_nil_r; reflexivity|].
  rewrite (IH (fun x Hx => Hold x (or_intror Hx))). apply insert_desc_app.
  intros x Hx. rewrite (HH x Hx). pose proof (Hold s (or_introl eq_refl)). lia.
Qed.

Lemma find_user news n : NoDup (map vr_user news) -> In n news -> find (fun m => bytes_eqb (vr_user m) (vr_user n)) news = Some n.
Proof.
  induction news as [|x news IH]; intros Hu Hn; [destruct Hn|]. cbn [find map] in *. inversion Hu as [|? ? Hx Hu']; subst.
  destruct Hn as [<-|Hn].
  - rewrite (proj2 (bytes_eqb_eq _ _) eq_refl). reflexivity.
  - destruct (bytes_eqb (vr_user x) (vr_user n)) eqn:E; [|exact (IH Hu' Hn)].
    exfalso. apply bytes_eqb_eq in E. apply Hx. rewrite E. apply in_map. exact Hn.
Qed.

Lemma user_history_news news l e : NoDup (map vr_user news) -> (forall n, In n news -> vr_epoch n = e) ->
  user_history news l e = match find (fun n => bytes_eqb (vr_user n) l) news with Some n => [n] | None => [] end.
Proof.
  intros Hu He. induction news as [|x news IH]; [reflexivity|]. unfold user_history. cbn [fold_right find map] in *.
  inversion Hu as [|? ? Hx Hu']; subst. fold (user_history news l e). rewrite (IH Hu' (fun n Hn => He n (or_intror Hn))).
  rewrite (He x (or_introl eq_refl)), N.leb_refl, andb_true_r. destruct (bytes_eqb (vr_user x) l) eqn:E; [|reflexivity].
  destruct (find _ news) as [m|] eqn:F; [|reflexivity]. exfalso. apply find_some in F. destruct F as [Hm Em].
  apply bytes_eqb_eq in E, Em. apply Hx. rewrite E, <- Em. apply in_map. exact Hm.
Qed.

Lemma fold_lstep_bump u E : forall sts acc, (forall s, In s sts -> vr_epoch s <= E) ->
  fold_left (lstep u (E + 1)) sts acc = fold_left (lstep u E) sts acc.
Proof.
  induction sts as [|s sts IH]; intros acc H; [reflexivity|]. cbn [fold_left].
  rewrite IH by (intros x Hx; apply H; right; exact Hx). unfold lstep. rewrite sel_bump by (apply H; left; reflexivity). reflexivity.
Qed.

Lemma fold_lstep_skip u e : forall news acc, (forall s, In s news -> sel u e s = false) -> fold_left (lstep u e) news acc = acc.
Proof.
  induction news as [|s news IH]; intros acc H; [reflexivity|]. cbn [fold_left].
  rewrite IH by (intros x Hx; apply H; right; exact Hx). unfold lstep. rewrite (H s (or_introl eq_refl)). reflexivity.
Qed.

Lemma latest_after sts news E l :
  (forall s, In s sts -> vr_epoch s <= E) -> (forall n, In n news -> vr_epoch n = E + 1) ->
  NoDup (map vr_user news) ->
  latest_state (sts ++ news) l (E + 1) =
  match find (fun n => bytes_eqb (vr_user n) l) news with Some n => Some n | None => latest_state sts l E end.
Proof.
  intros Hs Hn Hu. destruct (find (fun n => bytes_eqb (vr_user n) l) news) as [n|] eqn:F.
  - apply find_some in F. destruct F as [Hin Hl]. apply bytes_eqb_eq in Hl.
    assert (Hin' : In n (sts ++ news)) by (apply in_or_app; right; exact Hin).
    destruct (latest_state (sts ++ news) l (E + 1)) as [s|] eqn:El.
    2:{ exfalso. apply (latest_state_some _ l (E + 1) n Hin' Hl); [rewrite (Hn n Hin); apply N.le_refl | exact El]. }
    destruct (latest_state_max _ _ _ _ El) as (Hs_in & Hsu & _ & Hmax). f_equal.
    specialize (Hmax n Hin' Hl ltac:(rewrite (Hn n Hin); apply N.le_refl)). rewrite (Hn n Hin) in Hmax.
    apply in_app_or in Hs_in. destruct Hs_in as [Hold|Hnew]; [pose proof (Hs s Hold); lia|].
    (* both are the new state of user l *)
    pose proof (find_user news n Hu Hin) as Fn. rewrite Hl, <- Hsu, (find_user news s Hu Hnew) in Fn. congruence.
  - rewrite !latest_state_fold, fold_left_app, (fold_lstep_bump l E sts None Hs). apply fold_lstep_skip.
    intros n Hin. unfold sel. rewrite (find_none _ _ F n Hin). reflexivity.
Qed.

(* the list seen through a map that keeps user and epoch (tombstoning is one) *)
Section Present.
  Variable g : vrec -> vrec.
  Hypothesis g_user : forall s, vr_user (g s) = vr_user s.
  Hypothesis g_epoch : forall s, vr_epoch (g s) = vr_epoch s.

  Lemma latest_state_map sts u e : latest_state (map g sts) u e = option_map g (latest_state sts u e).
  Proof.
    induction sts as [|x sts IH] using rev_ind; [reflexivity|]. rewrite map_app. cbn [map]. rewrite !latest_state_snoc, IH.
    unfold lstep, sel. rewrite g_user, g_epoch. destruct (bytes_eqb (vr_user x) u && (vr_epoch x <=? e)); [|reflexivity].
    destruct (latest_state sts u e) as [a|]; cbn [option_map]; [|reflexivity]. rewrite g_epoch. destruct (vr_epoch a <=? vr_epoch x); reflexivity.
  Qed.

  Lemma insert_desc_map s : forall h, insert_desc (g s) (map g h) = map g (insert_desc s h).
  Proof.
    induction h as [|x h IH]; [reflexivity|]. cbn [map insert_desc]. rewrite !g_epoch.
    destruct (vr_epoch x <=? vr_epoch s); [reflexivity|]. cbn [map]. rewrite IH. reflexivity.
  Qed.

  Lemma user_history_map sts u e : user_history (map g sts) u e = map g (user_history sts u e).
  Proof.
    unfold user_history. induction sts as [|s sts IH]; [reflexivity|]. cbn [map fold_right]. rewrite IH, g_user, g_epoch.
    destruct (bytes_eqb (vr_user s) u && (vr_epoch s <=? e)); [apply insert_desc_map | reflexivity].
  Qed.
End Present.

Lemma all_some_cons {A B} (f : A -> option B) a l r : all_some (map f (a :: l)) = Some r ->
  exists b r', f a = Some b /\ all_some (map f l) = Some r' /\ r = b :: r'.
Proof.
  cbn [map all_some]. destruct (f a) as [b|]; [|discriminate]. destruct (all_some (map f l)) as [r'|]; [|discriminate].
  intros [= <-]. exists b, r'. auto.
Qed.

Lemma all_some_in {A B} (f : A -> option B) : forall l r, all_some (map f l) = Some r ->
  forall y, In y r -> exists x, In x l /\ f x = Some y.
Proof.
  induction l as [|a l IH]; intros r H y Hy; [cbn in H; injection H as <-; destruct Hy|].
  destruct (all_some_cons _ _ _ _ H) as (b & r' & E & E2 & ->). destruct Hy as [<-|Hy]; [exists a; split; [left; reflexivity | exact E]|].
  destruct (IH r' E2 y Hy) as (x & Hx & Hfx). exists x. split; [right; exact Hx | exact Hfx].
Qed.

Lemma all_some_length {A B} (f : A -> option B) : forall l r, all_some (map f l) = Some r -> length r = length l.
Proof.
  induction l as [|a l IH]; intros r H; [cbn in H; injection H as <-; reflexivity|].
  destruct (all_some_cons _ _ _ _ H) as (b & r' & _ & E2 & ->). cbn [length]. f_equal. exact (IH r' E2).
Qed.

Section DirFacts.
  Variable cfg : config.
  Variable ck : bytes.
  Variable vrf_label : bytes -> bool -> N -> option nlabel.
  Variable vrf_proof : bytes -> bool -> N -> option bytes.
  Notation publish := (publish cfg ck vrf_label).
  Notation lookup := (lookup cfg ck vrf_label vrf_proof).
  Notation key_history := (key_history cfg ck vrf_label vrf_proof).

  (* C01: a batch that repeats a label is rejected without effect *)
  Theorem publish_duplicate st upds : has_dup (map fst upds) = true -> publish st upds = (st, DErrDuplicate).
  Proof. intros H. unfold Directory.publish. rewrite H. reflexivity. Qed.

  (* C01: a publish that derives no element (only re-submissions of current values) changes nothing
     and returns the current epoch hash *)
  Theorem publish_noop st upds news : has_dup (map fst upds) = false ->
    derive_all cfg ck vrf_label st upds = Some ([], news) ->
    publish st upds = (st, DOk (epoch_hash cfg st)).
  Proof. intros H1 H2. unfold Directory.publish. rewrite H1, H2. reflexivity. Qed.

  Lemma batch_insert_epoch empty t e n elems t' e' n' :
    batch_insert empty (t, e, n) elems = Some (t', e', n') -> e' = e + 1.
  Proof.
    unfold batch_insert. destruct (eset_is_empty (eset_from elems)).
    - intros [= _ <- _]. reflexivity.
    - destruct (ins empty ins_fuel (Some t) (eset_from elems) (e + 1)) as [[[r b] k]|]; [|discriminate].
      intros [= _ <- _]. reflexivity.
  Qed.

  Lemma publish_ok_inv st upds st' eh : publish st upds = (st', DOk eh) ->
    has_dup (map fst upds) = false /\ eh = epoch_hash cfg st' /\
    exists elems news, derive_all cfg ck vrf_label st upds = Some (elems, news) /\
      ((elems = [] /\ st' = st) \/
       (elems <> [] /\ exists t' n', batch_insert (c_empty_label cfg) (d_tree st, d_epoch st, d_num st) elems = Some (t', d_epoch st + 1, n') /\
                                    st' = DS t' (d_epoch st + 1) n' (d_states st ++ news))).
  Proof using Type.
    unfold Directory.publish. destruct (has_dup (map fst upds)); [discriminate|].
    destruct (derive_all cfg ck vrf_label st upds) as [[elems news]|]; [|discriminate].
    destruct elems as [|x xs]; [intros [= <- <-]; split; [reflexivity|]; split; [reflexivity|]; exists [], news; auto|].
    destruct (batch_insert (c_empty_label cfg) (d_tree st, d_epoch st, d_num st) (x :: xs)) as [[[t' e'] n']|] eqn:E; [|discriminate].
    intros [= <- <-]. pose proof (batch_insert_epoch _ _ _ _ _ _ _ _ E) as ->.
    split; [reflexivity|]. split; [reflexivity|]. exists (x :: xs), news. split; [reflexivity|]. right. split; [discriminate|]. exists t', n'. auto.
  Qed.

  Lemma publish_not_ok_same st upds st' r : publish st upds = (st', r) -> (forall x, r <> DOk x) -> st' = st.
  Proof using Type.
    unfold Directory.publish. destruct (has_dup (map fst upds)); [intros [= <- _] _; reflexivity|].
    destruct (derive_all cfg ck vrf_label st upds) as [[elems news]|]; [|intros [= <- _] _; reflexivity].
    destruct elems as [|x xs]; [intros [= <- <-] H; exfalso; exact (H _ eq_refl)|].
    destruct (batch_insert _ _ _) as [[[t' e'] n']|]; [intros [= <- <-] H; exfalso; exact (H _ eq_refl) | intros [= <- _] _; reflexivity].
  Qed.

  (* C01: a publish that changes something advances the epoch by exactly one, appends value states
     and returns the new epoch with the root hash of the new tree *)
  Theorem publish_changes st upds st' e h :
    publish st upds = (st', DOk (e, h)) -> st' <> st ->
    d_epoch st' = d_epoch st + 1 /\ e = d_epoch st' /\ h = root_hash cfg true (d_tree st') /\
    exists news, d_states st' = d_states st ++ news.
  Proof.
    intros H Hne. destruct (publish_ok_inv _ _ _ _ H) as (_ & [= -> ->] & elems & news & _ & [[_ ->]|(_ & t' & n' & _ & ->)]); [congruence|].
    cbn [d_epoch d_tree d_states]. repeat split. exists news. reflexivity.
  Qed.

  (* C02: a label without any state at or before the current epoch is refused *)
  Theorem lookup_absent st l : latest_state (d_states st) l (d_epoch st) = None -> lookup st l = DErrNotFound.
  Proof. intros H. unfold Directory.lookup. rewrite H. reflexivity. Qed.

  Lemma lookup_inv st l p eh : lookup st l = DOk (p, eh) ->
    exists s el ml nl ep mp np,
      latest_state (d_states st) l (d_epoch st) = Some s /\
      vrf_label l true (vr_version s) = Some el /\ vrf_label l true (lookup_marker (vr_version s)) = Some ml /\
      vrf_label l false (vr_version s) = Some nl /\
      vrf_proof l true (vr_version s) = Some ep /\ vrf_proof l true (lookup_marker (vr_version s)) = Some mp /\
      vrf_proof l false (vr_version s) = Some np /\
      p = LP (vr_epoch s) (vr_value s) (vr_version s)
             ep (get_membership_proof cfg (d_tree st) el) mp (get_membership_proof cfg (d_tree st) ml)
             np (get_non_membership_proof cfg (d_tree st) nl)
             (c_commitment_nonce cfg ck (nl_to_bytes el) (vr_version s) (vr_value s)) /\
      eh = epoch_hash cfg st.
  Proof using Type.
    unfold Directory.lookup. destruct (latest_state (d_states st) l (d_epoch st)) as [s|]; [|discriminate].
    destruct (vrf_label l true (vr_version s)) as [el|] eqn:E1; [|discriminate].
    destruct (vrf_label l true (lookup_marker (vr_version s))) as [ml|] eqn:E2; [|discriminate].
    destruct (vrf_label l false (vr_version s)) as [nl|] eqn:E3; [|discriminate].
    destruct (vrf_proof l true (vr_version s)) as [ep|] eqn:E4; [|discriminate].
    destruct (vrf_proof l true (lookup_marker (vr_version s))) as [mp|] eqn:E5; [|discriminate].
    destruct (vrf_proof l false (vr_version s)) as [np|] eqn:E6; [|discriminate].
    intros [= <- <-]. exists s, el, ml, nl, ep, mp, np. repeat split; assumption.
  Qed.

  (* C02: a returned lookup proof reports the label's latest state and the current epoch hash, and
     its two membership parts verify against that hash *)
  Theorem lookup_ok st l p eh : tlabel (d_tree st) = nl_root -> is_leaf (d_tree st) = false ->
    lookup st l = DOk (p, eh) ->
    eh = epoch_hash cfg st /\
    (exists s, latest_state (d_states st) l (d_epoch st) = Some s /\
               lp_epoch p = vr_epoch s /\ lp_version p = vr_version s /\ lp_value p = vr_value s) /\
    verify_membership cfg (snd eh) (lp_existence p) = true /\
    verify_membership cfg (snd eh) (lp_marker p) = true.
  Proof.
    intros Hr Hl H. destruct (lookup_inv _ _ _ _ H) as (s & el & ml & nl & ep & mp & np & Es & _ & _ & _ & _ & _ & _ & -> & ->).
    cbn [lp_epoch lp_version lp_value lp_existence lp_marker snd epoch_hash].
    split; [reflexivity|]. split; [exists s; auto|]. split; now apply gen_membership_verifies.
  Qed.

  (* C03: no state at or before the current epoch -> refused *)
  Theorem key_history_absent st l params : user_history (d_states st) l (d_epoch st) = [] ->
    key_history st l params = DErrNotFound.
  Proof.
    intros H. unfold Directory.key_history. rewrite H. destruct params; [reflexivity|]. rewrite firstn_nil. reflexivity.
  Qed.

  Lemma single_update_proof_inv t l s u : single_update_proof cfg ck vrf_label vrf_proof t l s = Some u ->
    exists el ep, vrf_label l true (vr_version s) = Some el /\ vrf_proof l true (vr_version s) = Some ep /\
      up_epoch u = vr_epoch s /\ up_version u = vr_version s /\ up_value u = vr_value s /\ up_existence_vrf u = ep /\
      up_existence u = get_membership_proof cfg t el /\
      up_nonce u = c_commitment_nonce cfg ck (nl_to_bytes el) (vr_version s) (vr_value s) /\
      if 1 <? vr_version s
      then exists pl pp, vrf_label l false (vr_version s - 1) = Some pl /\ vrf_proof l false (vr_version s - 1) = Some pp /\
                         up_prev_vrf u = Some pp /\ up_prev u = Some (get_membership_proof cfg t pl)
      else up_prev_vrf u = None /\ up_prev u = None.
  Proof using Type.
    unfold single_update_proof, opt_bind. destruct (vrf_label l true (vr_version s)) as [el|]; [|discriminate].
    destruct (vrf_proof l true (vr_version s)) as [ep|]; [|discriminate].
    destruct (1 <? vr_version s).
    - destruct (vrf_label l false (vr_version s - 1)) as [pl|]; [|discriminate].
      destruct (vrf_proof l false (vr_version s - 1)) as [pp|]; [|discriminate].
      intros [= <-]. exists el, ep. repeat split. exists pl, pp. repeat split.
    - intros [= <-]. exists el, ep. repeat split.
  Qed.

  Lemma key_history_inv st l params p eh : key_history st l params = DOk (p, eh) ->
    let data := match params with
                | HComplete => user_history (d_states st) l (d_epoch st)
                | HMostRecent n => firstn (N.to_nat n) (user_history (d_states st) l (d_epoch st))
                end in
    exists d0 rest start_v end_v past future ups pvp pls fvp fls,
      data = d0 :: rest /\
      start_v = fold_left N.min (map vr_version data) (vr_version d0) /\ start_v <> 0 /\
      end_v = fold_left N.max (map vr_version data) (vr_version d0) /\ end_v <> 0 /\
      get_marker_versions start_v end_v (d_epoch st) = Some (past, future) /\
      all_some (map (single_update_proof cfg ck vrf_label vrf_proof (d_tree st) l) data) = Some ups /\
      all_some (map (vrf_proof l true) past) = Some pvp /\ all_some (map (vrf_label l true) past) = Some pls /\
      all_some (map (vrf_proof l true) future) = Some fvp /\ all_some (map (vrf_label l true) future) = Some fls /\
      p = HP ups pvp (map (get_membership_proof cfg (d_tree st)) pls) fvp (map (get_non_membership_proof cfg (d_tree st)) fls) /\
      eh = epoch_hash cfg st.
  Proof using Type.
    intros H data. unfold Directory.key_history in H. cbv zeta in H. fold data in H. destruct data as [|d0 rest] eqn:Ed; [discriminate|]. rewrite <- Ed in H.
    rewrite <- (fold_left_map N.min vr_version), <- (fold_left_map N.max vr_version) in H.
    destruct (N.eqb_spec (fold_left N.min (map vr_version data) (vr_version d0)) 0) as [|Hs]; [discriminate|].
    destruct (N.eqb_spec (fold_left N.max (map vr_version data) (vr_version d0)) 0) as [|He]; [discriminate|]. cbn [orb] in H.
    destruct (get_marker_versions _ _ (d_epoch st)) as [[past future]|] eqn:Em; [|discriminate].
    destruct (all_some (map (single_update_proof cfg ck vrf_label vrf_proof (d_tree st) l) data)) as [ups|] eqn:Eu; [|discriminate].
    destruct (all_some (map (fun v => vrf_proof l true v) past)) as [pvp|] eqn:E1; [|discriminate].
    destruct (all_some (map (fun v => vrf_label l true v) past)) as [pls|] eqn:E2; [|discriminate].
    destruct (all_some (map (fun v => vrf_proof l true v) future)) as [fvp|] eqn:E3; [|discriminate].
    destruct (all_some (map (fun v => vrf_label l true v) future)) as [fls|] eqn:E4; [|discriminate].
    injection H as <- <-. rewrite <- Ed. eexists d0, rest, _, _, past, future, ups, pvp, pls, fvp, fls.
    split; [exact Ed|]. split; [reflexivity|]. split; [exact Hs|]. split; [reflexivity|]. repeat split; assumption.
  Qed.

  Lemma tomb_user l c s : vr_user (tomb_state l c s) = vr_user s.
  Proof. unfold tomb_state. destruct (_ && _); reflexivity. Qed.
  Lemma tomb_epoch l c s : vr_epoch (tomb_state l c s) = vr_epoch s.
  Proof. unfold tomb_state. destruct (_ && _); reflexivity. Qed.
  Lemma tomb_version l c s : vr_version (tomb_state l c s) = vr_version s.
  Proof. unfold tomb_state. destruct (_ && _); reflexivity. Qed.
  Lemma tomb_label l c s : vr_label (tomb_state l c s) = vr_label s.
  Proof. unfold tomb_state. destruct (_ && _); reflexivity. Qed.

  (* C20: the epoch hash is untouched (and with it every audit proof, which only reads tree and epoch) *)
  Theorem tombstone_epoch_hash st l c : epoch_hash cfg (d_tombstone st l c) = epoch_hash cfg st.
  Proof. reflexivity. Qed.

  (* C20: lookups of other labels, and the label's own lookup when the cut-off is before its latest
     update, return the very same proof *)
  Theorem tombstone_lookup st l c l' :
    (bytes_eqb l' l = false \/
     exists s, latest_state (d_states st) l' (d_epoch st) = Some s /\ c < vr_epoch s) ->
    lookup (d_tombstone st l c) l' = lookup st l'.
  Proof.
    intros H. unfold Directory.lookup. cbn [d_tombstone d_states d_epoch d_tree]. rewrite (latest_state_map _ (tomb_user l c) (tomb_epoch l c)).
    destruct (latest_state (d_states st) l' (d_epoch st)) as [s|] eqn:E; [|reflexivity]. cbn [option_map].
    assert (Hs : tomb_state l c s = s).
    { unfold tomb_state. destruct (latest_state_max _ _ _ _ E) as (_ & Hu & _).
      destruct H as [Hne|(s' & Es & Hc)].
      - destruct (bytes_eqb (vr_user s) l) eqn:B; [|reflexivity]. exfalso.
        apply bytes_eqb_eq in B. assert (E' : l' = l) by congruence. apply bytes_eqb_eq in E'. congruence.
      - injection Es as <-. destruct (N.leb_spec (vr_epoch s) c); [lia|]. now rewrite andb_false_r. }
    rewrite Hs. reflexivity.
  Qed.

  Lemma derive_update_tomb st l c upd :
    latest_state (map (tomb_state l c) (d_states st)) (fst upd) (d_epoch st) = latest_state (d_states st) (fst upd) (d_epoch st) ->
    derive_update cfg ck vrf_label (d_tombstone st l c) upd = derive_update cfg ck vrf_label st upd.
  Proof using cfg ck vrf_label.
    intros H. unfold derive_update. destruct upd as [l' v]. cbn [d_tombstone d_states d_epoch fst] in *. rewrite H. reflexivity.
  Qed.

  Lemma derive_all_tomb st l c upds :
    (forall u, In u (map fst upds) ->
       latest_state (map (tomb_state l c) (d_states st)) u (d_epoch st) = latest_state (d_states st) u (d_epoch st)) ->
    derive_all cfg ck vrf_label (d_tombstone st l c) upds = derive_all cfg ck vrf_label st upds.
  Proof using cfg ck vrf_label.
    induction upds as [|u upds IH]; intros H; [reflexivity|]. cbn [derive_all].
    rewrite derive_update_tomb by (apply H; now left). rewrite IH by (intros u' Hu'; apply H; now right). reflexivity.
  Qed.

  Lemma derive_update_news_epoch st upd elems news : derive_update cfg ck vrf_label st upd = Some (elems, news) ->
    forall s, In s news -> vr_epoch s = d_epoch st + 1.
  Proof using cfg ck vrf_label.
    unfold derive_update. destruct upd as [l v]. destruct (latest_state _ _ _) as [s0|].
    - destruct (bytes_eqb (vr_value s0) v); [intros [= <- <-] s []|].
      destruct (vrf_label l false (vr_version s0)); [|discriminate]. destruct (vrf_label l true (vr_version s0 + 1)); [|discriminate].
      intros [= <- <-] s [<-|[]]. reflexivity.
    - destruct (vrf_label l true 1); [|discriminate]. intros [= <- <-] s [<-|[]]. reflexivity.
  Qed.

  Lemma derive_all_news_epoch st upds : forall elems news, derive_all cfg ck vrf_label st upds = Some (elems, news) ->
    forall s, In s news -> vr_epoch s = d_epoch st + 1.
  Proof using cfg ck vrf_label.
    induction upds as [|u upds IH]; intros elems news H s Hs; cbn [derive_all] in H.
    - injection H as <- <-. destruct Hs.
    - destruct (derive_update cfg ck vrf_label st u) as [[e1 s1]|] eqn:E1; [|discriminate].
      destruct (derive_all cfg ck vrf_label st upds) as [[e2 s2]|] eqn:E2; [|discriminate].
      injection H as <- <-. apply in_app_or in Hs. destruct Hs as [Hs|Hs].
      + eapply derive_update_news_epoch; eauto.
      + eapply IH; eauto.
  Qed.

  (* C20: further publishes commute with tombstoning (cut-off not beyond the current epoch; the
     latest state of every published label is not among the tombstoned ones) *)
  Theorem tombstone_publish_commute st l c upds st' r :
    c <= d_epoch st ->
    (forall u, In u (map fst upds) ->
       latest_state (map (tomb_state l c) (d_states st)) u (d_epoch st) = latest_state (d_states st) u (d_epoch st)) ->
    publish st upds = (st', r) ->
    publish (d_tombstone st l c) upds = (d_tombstone st' l c, r).
  Proof using cfg ck vrf_label.
    intros Hc Hst. unfold Directory.publish. destruct (has_dup (map fst upds)); [intros [= <- <-]; reflexivity|].
    rewrite derive_all_tomb by exact Hst.
    destruct (derive_all cfg ck vrf_label st upds) as [[elems news]|] eqn:E; [|intros [= <- <-]; reflexivity].
    destruct elems as [|x xs]; [intros [= <- <-]; reflexivity|].
    cbn [d_tombstone d_tree d_epoch d_num d_states].
    destruct (batch_insert (c_empty_label cfg) (d_tree st, d_epoch st, d_num st) (x :: xs)) as [[[t' e'] n']|]; [|intros [= <- <-]; reflexivity].
    intros [= <- <-]. unfold d_tombstone. cbn [d_tree d_epoch d_num d_states]. rewrite map_app.
    assert (Hn : map (tomb_state l c) news = news).
    { rewrite <- (map_id news) at 2. apply map_ext_in. intros s Hs. unfold tomb_state.
      rewrite (derive_all_news_epoch st upds _ _ E s Hs). destruct (N.leb_spec (d_epoch st + 1) c) as [Hx|Hx]; [exfalso; clear - Hx Hc; lia|]. rewrite andb_false_r. reflexivity. }
    rewrite Hn. reflexivity.
  Qed.

End DirFacts.

(* C11: value states stamped with a later epoch are invisible at or before E *)
Lemma latest_state_future sts news u E :
  (forall s, In s news -> E < vr_epoch s) -> latest_state (sts ++ news) u E = latest_state sts u E.
Proof.
  intros H. rewrite !latest_state_fold, fold_left_app. apply fold_lstep_skip.
  intros s Hs. unfold sel. rewrite (proj2 (N.leb_gt _ _) (H s Hs)). apply andb_false_r.
Qed.

Section AuditFacts.
  Variable cfg : config.

  (* C04: requests with s >= e or e beyond the current epoch are refused; an accepted request
     yields one single-epoch proof per epoch s .. e-1 *)
  Theorem audit_range st s e : e <= s \/ d_epoch st < e -> audit cfg st s e = DErrInvalidEpoch.
  Proof.
    intros H. unfold audit. destruct (N.leb_spec e s); [reflexivity|]. destruct (N.ltb_spec (d_epoch st) e); [reflexivity|lia].
  Qed.

  Theorem audit_shape st s e p : audit cfg st s e = DOk p ->
    s < e /\ e <= d_epoch st /\ ap_epochs p = Nrange' s (N.to_nat (e - s)) /\
    length (ap_proofs p) = length (ap_epochs p) /\ length (ap_epochs p) = N.to_nat (e - s).
  Proof.
    unfold audit. destruct (N.leb_spec e s); [discriminate|]. destruct (N.ltb_spec (d_epoch st) e); [discriminate|].
    intros Hp. assert (Hp' : p = AP (map (fun ep => let '(unch, ins) := ao_walk cfg 300 true (d_tree st) ep (ep + 1) in (ins, unch)) (Nrange' s (N.to_nat (e - s)))) (Nrange' s (N.to_nat (e - s)))) by congruence.
    clear Hp. subst p. unfold ap_epochs, ap_proofs. split; [assumption|]. split; [assumption|]. split; [reflexivity|].
    split; [now rewrite map_length|]. unfold Nrange'. now rewrite map_length, seq_length.
  Qed.

  (* C04/C09: inconsistent hash / epoch / proof lists are rejected *)
  Theorem audit_verify_lengths pf hashes p :
    audit_verify_gen cfg pf hashes p = true ->
    length hashes = S (length (ap_epochs p)) /\ length (ap_proofs p) = length (ap_epochs p).
  Proof.
    unfold audit_verify_gen. intros H. apply andb_true_iff in H. destruct H as [H _].
    apply andb_true_iff in H. destruct H as [H1 H2]. apply Nat.eqb_eq in H1, H2. lia.
  Qed.
End AuditFacts.
