(* A concrete model of the premises of the directory-level soundness theorems (C06/C07/C08), together
   with verifying proofs: a finite VRF table (one user, versions below 4), the verifier-side function
   F extending it, a VRF check accepting exactly the table's proofs, and a transparent 32-byte "hash"
   that keeps its (short) input.  Shows that the premises are not contradictory in the presence of
   verifying proofs.  (With a transparent hash the bad event is of course true; the point here is
   the premises.) *)
From Coq Require Import List Bool NArith Lia Arith.
From Akd Require Import NodeLabel NodeLabelFacts Hashing Tree TreeFacts Binding Directory Verify DirSound.
From Akd Require Import BitsLabel HashingFacts DirRefine LookupComplete.
Import ListNotations.
Open Scope N_scope.
Definition s6_H (x : bytes) : bytes := firstn 32 (rev x ++ repeat 0 32).
Definition s6_user : bytes := [1].
Definition s6_bits (f : bool) (v : N) : list bool := f :: N.testbit v 1 :: N.testbit v 0 :: repeat false 253.
Definition s6_vrf_label (l : bytes) (f : bool) (v : N) : option nlabel :=
  if bytes_eqb l s6_user && (v <? 4) then Some (nl_of_bits (s6_bits f v)) else None.
Definition s6_F (f : bool) (v : N) : nlabel := if v <? 4 then nl_of_bits (s6_bits f v) else nl_of_bits (repeat true 256).
Definition s6_cands : list (bool * N) := [(true, 0); (true, 1); (true, 2); (true, 3); (false, 0); (false, 1); (false, 2); (false, 3)].
Definition s6_cfg : config := whatsapp s6_H.
Definition s6_check (pk pr alpha : bytes) : option bytes :=
  if existsb (fun c => bytes_eqb alpha (label_input_hash s6_cfg s6_user (fst c) (snd c)) && bytes_eqb pr (lval (s6_F (fst c) (snd c)))) s6_cands
  then Some pr else None.
Definition s6_vrf_proof (l : bytes) (f : bool) (v : N) : option bytes :=
  match s6_vrf_label l f v with Some nl => Some (lval nl) | None => None end.
Definition s6_st := run_publishes s6_cfg [9] s6_vrf_label dir_new [[(s6_user, [5])]; [(s6_user, [6])]].

Lemma s6_H_len x : length (s6_H x) = 32%nat.
Proof. unfold s6_H. rewrite firstn_length, app_length, repeat_length. lia. Qed.

Lemma s6_H_keeps x : (length x <= 32)%nat -> firstn (length x) (s6_H x) = rev x.
Proof.
  intros Lx. unfold s6_H. rewrite firstn_firstn, Nat.min_l by lia.
  rewrite <- (rev_length x). apply firstn_app_exact. reflexivity.
Qed.

Lemma s6_H_short x y : (length x <= 32)%nat -> length y = length x -> s6_H x = s6_H y -> x = y.
Proof.
  intros Lx Ly E. pose proof (s6_H_keeps x Lx) as Ex. rewrite E, <- Ly, s6_H_keeps in Ex by lia.
  rewrite <- (rev_involutive x), <- (rev_involutive y), Ex. reflexivity.
Qed.

Lemma s6_input_inj f v f' v' : v < 2 ^ 64 -> v' < 2 ^ 64 ->
  label_input_hash s6_cfg s6_user f v = label_input_hash s6_cfg s6_user f' v' -> f = f' /\ v = v'.
Proof.
  intros Hv Hv' E. unfold label_input_hash, s6_cfg in E. cbn [c_hash whatsapp] in E.
  apply s6_H_short in E.
  - apply app_inv_head in E. apply app_eq_len in E; [|reflexivity]. destruct E as [E1 E2].
    split; [destruct f, f'; try reflexivity; discriminate|].
    apply (be_bytes_inj 8); [exact Hv | exact Hv' | exact E2].
  - rewrite !app_length. unfold i2osp_array, be64. rewrite !app_length, !length_be_bytes. cbn. lia.
  - rewrite !app_length. unfold be64. rewrite !length_be_bytes. reflexivity.
Qed.

Lemma s6_bits_len f v : length (s6_bits f v) = 256%nat.
Proof. cbn [s6_bits length]. rewrite repeat_length. reflexivity. Qed.

Lemma s6_label_some l f v nl : s6_vrf_label l f v = Some nl -> l = s6_user /\ v < 4 /\ nl = nl_of_bits (s6_bits f v).
Proof.
  unfold s6_vrf_label. intros H. destruct (bytes_eqb l s6_user) eqn:E1; [|discriminate].
  destruct (N.ltb_spec v 4); [|discriminate]. injection H as <-. apply NodeLabelFacts.bytes_eqb_eq in E1. auto.
Qed.

Lemma s6_bits_inj f v f' v' : v < 4 -> v' < 4 -> s6_bits f v = s6_bits f' v' -> f = f' /\ v = v'.
Proof.
  intros Hv Hv' Eb. unfold s6_bits in Eb. injection Eb as E0 E1 E2. split; [exact E0|].
  assert (C : v = 0 \/ v = 1 \/ v = 2 \/ v = 3) by (clear - Hv; lia). assert (C' : v' = 0 \/ v' = 1 \/ v' = 2 \/ v' = 3) by (clear - Hv'; lia).
  destruct C as [->|[->|[->| ->]]]; destruct C' as [->|[->|[->| ->]]]; cbn in E1, E2; try reflexivity; discriminate.
Qed.

Lemma nl_of_bits_inj256 a b : length a = 256%nat -> length b = 256%nat -> nl_of_bits a = nl_of_bits b -> a = b.
Proof. intros La Lb E. rewrite <- (bits_of_nl_of_bits a) by lia. rewrite E. apply bits_of_nl_of_bits. lia. Qed.

Lemma nl_of_bits_256 bs : length bs = 256%nat ->
  WF (nl_of_bits bs) /\ canonical (nl_of_bits bs) = true /\ llen (nl_of_bits bs) = 256 /\ LW (nl_of_bits bs).
Proof.
  intros L. destruct (nl_of_bits_WF bs ltac:(lia)) as [W C]. split; [exact W|]. split; [exact C|].
  split; [unfold nl_of_bits; cbn [llen]; rewrite L; reflexivity | apply WF_LW; exact W].
Qed.

Lemma s6_F_ok f v : llen (s6_F f v) = 256 /\ WF (s6_F f v) /\ LW (s6_F f v).
Proof.
  assert (G : forall bs, length bs = 256%nat -> llen (nl_of_bits bs) = 256 /\ WF (nl_of_bits bs) /\ LW (nl_of_bits bs)).
  { intros bs L. destruct (nl_of_bits_256 bs L) as (W & _ & E & LWb). auto. }
  unfold s6_F. destruct (v <? 4); apply G; [apply s6_bits_len | apply repeat_length].
Qed.

Lemma s6_F_inj f v l' f' v' : s6_vrf_label l' f' v' = Some (s6_F f v) -> l' = s6_user /\ f' = f /\ v' = v.
Proof.
  intros H. destruct (s6_label_some _ _ _ _ H) as (-> & Hv' & E). split; [reflexivity|]. unfold s6_F in E.
  destruct (N.ltb_spec v 4) as [Hv|Hv].
  - apply nl_of_bits_inj256 in E; try apply s6_bits_len. destruct (s6_bits_inj _ _ _ _ Hv Hv' E) as [-> ->]. split; reflexivity.
  - exfalso. apply nl_of_bits_inj256 in E; [|apply repeat_length|apply s6_bits_len]. unfold s6_bits in E. cbn in E. discriminate.
Qed.

Lemma s6_check_out proof f v out : v < 2 ^ 64 ->
  s6_check [] proof (label_input_hash s6_cfg s6_user f v) = Some out -> NL out 256 = s6_F f v.
Proof.
  intros Hv H. unfold s6_check in H.
  destruct (existsb _ s6_cands) eqn:Ex; [|discriminate]. injection H as <-.
  apply existsb_exists in Ex. destruct Ex as ([f' v'] & Hc & Hb). cbn [fst snd] in Hb.
  apply andb_true_iff in Hb. destruct Hb as [Ha Hp]. apply NodeLabelFacts.bytes_eqb_eq in Ha, Hp.
  assert (Hv' : v' < 2 ^ 64).
  { assert (forallb (fun c => snd c <? 4) s6_cands = true) as Hall by reflexivity.
    rewrite forallb_forall in Hall. specialize (Hall _ Hc). cbn [snd] in Hall. apply N.ltb_lt in Hall.
    assert (4 < 2 ^ 64) by reflexivity. lia. }
  destruct (s6_input_inj f v f' v' Hv Hv' Ha) as [-> ->]. rewrite Hp.
  apply (full_label_eta (s6_F f' v')). apply s6_F_ok.
Qed.

(* the directory after the two publishes is evaluated once; every clause about it is then decided by
   computation from that value (rewriting first keeps each later evaluation from redoing the publishes) *)
Definition s6_val := Eval vm_compute in s6_st.

Lemma s6_st_val : s6_st = s6_val.
Proof. vm_compute. reflexivity. Qed.

Lemma s6_states_len : forall s, In s (d_states s6_st) -> Len64 (vr_value s).
Proof.
  rewrite s6_st_val. assert (H : forallb (fun s => N.of_nat (length (vr_value s)) <? 2 ^ 64) (d_states s6_val) = true) by (vm_compute; reflexivity).
  intros s Hs. apply N.ltb_lt. exact (proj1 (forallb_forall _ _) H s Hs).
Qed.

Lemma s6_premises :
  (forall l f v nl, s6_vrf_label l f v = Some nl -> WF nl /\ canonical nl = true /\ llen nl = 256) /\
  (forall l f v l' f' v' nl, s6_vrf_label l f v = Some nl -> s6_vrf_label l' f' v' = Some nl -> l = l' /\ f = f' /\ v = v') /\
  (forall f v, llen (s6_F f v) = 256 /\ WF (s6_F f v) /\ LW (s6_F f v)) /\
  (forall f v nl, s6_vrf_label s6_user f v = Some nl -> nl = s6_F f v) /\
  (forall f v l' f' v', v < 2 ^ 64 -> s6_vrf_label l' f' v' = Some (s6_F f v) -> l' = s6_user /\ f' = f /\ v' = v) /\
  (forall proof f v out, v < 2 ^ 64 -> s6_check [] proof (label_input_hash s6_cfg s6_user f v) = Some out -> NL out 256 = s6_F f v) /\
  (forall key lb ver value, Len64 (c_commitment_nonce s6_cfg key lb ver value)) /\ D32 (c_stale_value s6_cfg) /\
  (forall s, In s (d_states s6_st) -> Len64 (vr_value s)) /\ d_epoch s6_st < 2 ^ 64 /\
  (exists p eh, lookup s6_cfg [9] s6_vrf_label s6_vrf_proof s6_st s6_user = DOk (p, eh) /\
    lookup_verify s6_cfg s6_check [] (snd eh) (fst eh) s6_user p = Some (VRes 2 2 [6])) /\
  (exists p eh, key_history s6_cfg [9] s6_vrf_label s6_vrf_proof s6_st s6_user HComplete = DOk (p, eh) /\
    key_history_verify s6_cfg s6_check [] (snd eh) (fst eh) s6_user p HComplete false = Some [VRes 2 2 [6]; VRes 1 1 [5]] /\
    key_history_verify s6_cfg s6_check [] (snd eh) (fst eh) s6_user p HComplete true = Some [VRes 2 2 [6]; VRes 1 1 [5]]) /\
  (exists p eh, key_history s6_cfg [9] s6_vrf_label s6_vrf_proof s6_st s6_user (HMostRecent 1) = DOk (p, eh) /\
    key_history_verify s6_cfg s6_check [] (snd eh) (fst eh) s6_user p (HMostRecent 1) false = Some [VRes 2 2 [6]]).
Proof.
  split; [|split; [|split; [|split; [|split; [|split; [|split; [|split; [|split; [|split; [|split; [|split]]]]]]]]]]].
  - intros l f v nl H. destruct (s6_label_some _ _ _ _ H) as (_ & _ & ->).
    destruct (nl_of_bits_256 _ (s6_bits_len f v)) as (W & C & E & _). auto.
  - intros l f v l' f' v' nl H H'. destruct (s6_label_some _ _ _ _ H) as (-> & Hv & ->). destruct (s6_label_some _ _ _ _ H') as (-> & Hv' & E).
    split; [reflexivity|]. apply nl_of_bits_inj256 in E; try apply s6_bits_len. apply (s6_bits_inj _ _ _ _ Hv Hv' E).
  - exact s6_F_ok.
  - intros f v nl H. destruct (s6_label_some _ _ _ _ H) as (_ & Hv & ->). unfold s6_F. apply N.ltb_lt in Hv. rewrite Hv. reflexivity.
  - intros f v l' f' v' _. apply s6_F_inj.
  - exact s6_check_out.
  - intros key lb ver value. apply (nonce_len_real s6_H s6_H_len []).
  - apply s6_H_len.
  - exact s6_states_len.
  - rewrite s6_st_val. vm_compute. reflexivity.
  - rewrite s6_st_val. eexists. eexists. split; [vm_compute; reflexivity | vm_compute; reflexivity].
  - rewrite s6_st_val. eexists. eexists. split; [vm_compute; reflexivity | split; vm_compute; reflexivity].
  - rewrite s6_st_val. eexists. eexists. split; [vm_compute; reflexivity | vm_compute; reflexivity].
Qed.
