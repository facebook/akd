(* C13, last sentence: "once change polling has signalled a new epoch, later requests on that instance
   are answered from an epoch at least that new".

   A cached instance that does not write: the data layer's epoch record is advanced by somebody else
   (QX); requests read it through the cache (hit, or miss - read - fill); the change poller flushes the
   cache, re-reads the epoch record and signals (QF).  With [locking] = true a request holds the
   directory's cache lock in shared mode from its start to its end and the poller takes it exclusively,
   i.e. the flush waits until no request is in flight (a request cannot start while the poller holds the
   lock: QF is one step).  [locking] = false is a request that does not take the lock - get_epoch_hash
   before the fix.

   Theorem: with the lock, for every schedule, a request that starts after the poller has signalled
   epoch e returns an epoch >= e.  Without it the property fails on the schedule found on the code. *)
From Coq Require Import List Arith Lia Bool.
From Akd Require Import ListFacts.
Import ListNotations.

Inductive qpc := QS | Q1 (lo : nat) | Q2 (lo v : nat) | QDone (lo v : nat).
(* lo: the epoch the poller had signalled when the request started (ghost) *)

Record qstate := QSt { q_db : nat; q_cache : option nat; q_signalled : nat; q_reqs : list qpc }.

Fixpoint qupd (l : list qpc) (i : nat) (x : qpc) : list qpc :=
  match l, i with
  | [], _ => []
  | _ :: r, O => x :: r
  | a :: r, S j => a :: qupd r j x
  end.

Definition in_flight (q : qpc) : bool := match q with Q1 _ | Q2 _ _ => true | _ => false end.

Inductive qaction := QR (i : nat) | QX | QF.

Definition qstep (locking : bool) (s : qstate) (a : qaction) : qstate :=
  match a with
  | QR i =>
    match nth_error (q_reqs s) i with
    | Some QS =>
      let lo := q_signalled s in
      QSt (q_db s) (q_cache s) (q_signalled s)
          (qupd (q_reqs s) i (match q_cache s with Some v => QDone lo v | None => Q1 lo end))
    | Some (Q1 lo) => QSt (q_db s) (q_cache s) (q_signalled s) (qupd (q_reqs s) i (Q2 lo (q_db s)))
    | Some (Q2 lo v) => QSt (q_db s) (Some v) (q_signalled s) (qupd (q_reqs s) i (QDone lo v))
    | _ => s
    end
  | QX => QSt (S (q_db s)) (q_cache s) (q_signalled s) (q_reqs s)
  | QF =>
    if locking && existsb in_flight (q_reqs s) then s   (* the poller waits for the lock *)
    else if Nat.ltb (q_signalled s) (q_db s)
         then QSt (q_db s) (Some (q_db s)) (q_db s) (q_reqs s)   (* flush, re-read, signal *)
         else s
  end.

Definition qinit (e0 n : nat) : qstate := QSt e0 (Some e0) e0 (repeat QS n).
Definition qrun (locking : bool) (s : qstate) (sched : list qaction) : qstate := fold_left (qstep locking) sched s.

Definition q_ok (s : qstate) (q : qpc) : Prop :=
  match q with
  | QS => True
  | Q1 lo => lo <= q_signalled s /\ q_signalled s <= lo      (* nothing is signalled while it is in flight *)
  | Q2 lo v => lo <= v /\ q_signalled s <= lo
  | QDone lo v => lo <= v
  end.

Record QInv (s : qstate) : Prop := {
  qi_sig : q_signalled s <= q_db s;
  qi_cache : forall v, q_cache s = Some v -> q_signalled s <= v;
  qi_reqs : Forall (q_ok s) (q_reqs s) }.

Lemma qinit_inv e0 n : QInv (qinit e0 n).
Proof.
  constructor; cbn [qinit q_db q_cache q_signalled q_reqs].
  - apply Nat.le_refl.
  - intros v [= <-]. apply Nat.le_refl.
  - apply Forall_repeat. exact I.
Qed.

Lemma q_ok_idle s s' q : in_flight q = false -> q_ok s q -> q_ok s' q.
Proof. destruct q; cbn [in_flight q_ok]; auto; discriminate. Qed.

Lemma qstep_keeps s a : QInv s -> QInv (qstep true s a).
Proof.
  (* [qupd] is ListFacts.upd_nth at [qpc], as [tupd] is at [tpc]: its lemmas apply as they are *)
  intros I0. pose proof I0 as [Hs Hc Hr]. destruct a as [i| |]; cbn [qstep].
  - destruct (nth_error (q_reqs s) i) as [[|lo|lo v|lo v]|] eqn:E; try exact I0;
      pose proof (nth_error_Forall _ _ _ _ Hr E) as Hq; cbn [q_ok] in Hq;
      constructor; cbn [q_db q_cache q_signalled q_reqs]; try assumption; try (apply Forall_upd; [exact Hr|]).
    + (* start: a hit is served from a cache that is at least what is signalled *)
      destruct (q_cache s) as [v|] eqn:Ec; cbn [q_ok]; [apply Hc; reflexivity | split; apply Nat.le_refl].
    + (* read *) cbn [q_ok]. split; [lia | apply Hq].
    + (* fill *) intros w [= <-]. lia.
    + exact (proj1 Hq).
  - (* somebody else publishes *)
    constructor; cbn [q_db q_cache q_signalled q_reqs]; [lia | exact Hc | exact Hr].
  - (* the poller: it runs only when no request is in flight *)
    cbn [andb]. destruct (existsb in_flight (q_reqs s)) eqn:Ef; [exact I0|].
    destruct (Nat.ltb_spec (q_signalled s) (q_db s)) as [Hlt|_]; [|exact I0].
    constructor; cbn [q_db q_cache q_signalled q_reqs].
    + apply Nat.le_refl.
    + intros v [= <-]. apply Nat.le_refl.
    + exact (Forall_unflagged _ _ _ _ Ef (q_ok_idle s _) Hr).
Qed.

Lemma qrun_inv sched : forall s, QInv s -> QInv (qrun true s sched).
Proof. apply fold_left_inv. intros s a. apply qstep_keeps. Qed.

Theorem after_signal_at_least_that_new e0 n sched :
  let s := qrun true (qinit e0 n) sched in
  forall i lo v, nth_error (q_reqs s) i = Some (QDone lo v) -> lo <= v.
Proof. intros s i lo v. exact (nth_error_Forall _ _ _ _ (qi_reqs _ (qrun_inv sched _ (qinit_inv e0 n)))). Qed.

(* the cache never holds less than what has been signalled *)
Theorem cache_at_least_signalled e0 n sched :
  let s := qrun true (qinit e0 n) sched in
  forall v, q_cache s = Some v -> q_signalled s <= v.
Proof. exact (qi_cache _ (qrun_inv sched _ (qinit_inv e0 n))). Qed.

(* without the lock: request 0 misses (the cache has just been flushed by an earlier poll, modelled by
   starting cold), reads epoch 2 and is suspended; epoch 3 is published, polled and signalled; request 0
   caches epoch 2; request 1, started after the signal for 3, is answered from epoch 2 *)
Definition cold (e0 n : nat) : qstate := QSt e0 None e0 (repeat QS n).
Theorem without_lock_refuted :
  let s := qrun false (cold 2 2) [QR 0; QR 0; QX; QF; QR 0; QR 1] in
  q_signalled s = 3 /\ nth_error (q_reqs s) 1 = Some (QDone 3 2).
Proof. vm_compute. split; reflexivity. Qed.

(* the same schedule with the lock: the poll waits, and once it has happened requests see epoch 3 *)
Example with_lock_same_schedule :
  let s := qrun true (cold 2 2) [QR 0; QR 0; QX; QF; QR 0; QF; QR 1; QR 1; QR 1] in
  q_signalled s = 3 /\ nth_error (q_reqs s) 1 = Some (QDone 3 3).
Proof. vm_compute. split; reflexivity. Qed.

(* The failure found on the code involves two records: the epoch record (always cached on an instance:
   read at construction, re-read by the poller after each flush) and a node record (here: the root,
   which changes with every epoch).  A node record retains two versions; a request that has read epoch
   a selects from the record whose latest version is l "as of a": the latest if l <= a, else the
   previous one (l - 1) if that is <= a, else it fails ("both retained versions are newer").  The
   answer is right when the selected version is a.

   Theorem: with the cache lock every answer names (a, version a) or is an error, for every schedule;
   without it the schedule found on the code yields (a + 1, version a). *)
Inductive tpc :=
| T0
| TN (a : nat)                   (* has read epoch a, about to look for the node *)
| TR (a : nat)                   (* node not cached: about to read the data layer *)
| TF (a l : nat)                 (* has read the record with latest version l, about to cache it *)
| TDone (a : nat) (r : option nat).

Record tstate := TSt { t_db : nat; t_azks : nat; t_node : option nat; t_reqs : list tpc }.

Fixpoint tupd (l : list tpc) (i : nat) (x : tpc) : list tpc :=
  match l, i with
  | [], _ => []
  | _ :: r, O => x :: r
  | a :: r, S j => a :: tupd r j x
  end.

Definition as_of (l a : nat) : option nat :=
  if Nat.leb l a then Some l else if Nat.leb (l - 1) a then Some (l - 1) else None.

Definition t_flight (q : tpc) : bool := match q with TN _ | TR _ | TF _ _ => true | _ => false end.

Definition tstep (locking : bool) (s : tstate) (a : qaction) : tstate :=
  match a with
  | QR i =>
    match nth_error (t_reqs s) i with
    | Some T0 => TSt (t_db s) (t_azks s) (t_node s) (tupd (t_reqs s) i (TN (t_azks s)))
    | Some (TN a) =>
      TSt (t_db s) (t_azks s) (t_node s)
          (tupd (t_reqs s) i (match t_node s with Some l => TDone a (as_of l a) | None => TR a end))
    | Some (TR a) => TSt (t_db s) (t_azks s) (t_node s) (tupd (t_reqs s) i (TF a (t_db s)))
    | Some (TF a l) => TSt (t_db s) (t_azks s) (Some l) (tupd (t_reqs s) i (TDone a (as_of l a)))
    | _ => s
    end
  | QX => TSt (S (t_db s)) (t_azks s) (t_node s) (t_reqs s)
  | QF =>
    if locking && existsb t_flight (t_reqs s) then s
    else if Nat.ltb (t_azks s) (t_db s) then TSt (t_db s) (t_db s) None (t_reqs s)
         else s
  end.

Definition tinit (e0 n : nat) : tstate := TSt e0 e0 None (repeat T0 n).
Definition trun2 (locking : bool) (s : tstate) (sched : list qaction) : tstate := fold_left (tstep locking) sched s.

Definition t_ok (s : tstate) (q : tpc) : Prop :=
  match q with
  | T0 => True
  | TN a | TR a => a = t_azks s
  | TF a l => a = t_azks s /\ a <= l /\ l <= t_db s
  | TDone a r => r = Some a \/ r = None
  end.

Record TInv (s : tstate) : Prop := {
  ti_azks : t_azks s <= t_db s;
  ti_node : forall l, t_node s = Some l -> t_azks s <= l /\ l <= t_db s;
  ti_reqs : Forall (t_ok s) (t_reqs s) }.

Lemma as_of_right l a : a <= l -> as_of l a = Some a \/ as_of l a = None.
Proof.
  intros H. unfold as_of. destruct (Nat.leb_spec l a) as [H1|H1].
  - left. f_equal. now apply Nat.le_antisymm.
  - destruct (Nat.leb_spec (l - 1) a) as [H2|H2]; [left; f_equal; lia | right; reflexivity].
Qed.

Lemma tinit_inv e0 n : TInv (tinit e0 n).
Proof.
  constructor; cbn [tinit t_db t_azks t_node t_reqs]; [apply Nat.le_refl | discriminate | apply Forall_repeat; exact I].
Qed.

Lemma t_ok_mono s s' q : t_azks s' = t_azks s -> t_db s <= t_db s' -> t_ok s q -> t_ok s' q.
Proof. intros Ea Hd. destruct q; cbn [t_ok]; rewrite ?Ea; auto. intros (A & B & C). repeat split; [exact A | exact B | lia]. Qed.

Lemma t_ok_idle s s' q : t_flight q = false -> t_ok s q -> t_ok s' q.
Proof. destruct q; cbn [t_flight t_ok]; auto; discriminate. Qed.

Lemma tstep_keeps s a : TInv s -> TInv (tstep true s a).
Proof.
  intros I0. pose proof I0 as [Ha Hn Hr]. destruct a as [i| |]; cbn [tstep].
  - destruct (nth_error (t_reqs s) i) as [[|a|a|a l|a r]|] eqn:E; try exact I0;
      pose proof (nth_error_Forall _ _ _ _ Hr E) as Hq; cbn [t_ok] in Hq;
      constructor; cbn [t_db t_azks t_node t_reqs]; try assumption; try (apply Forall_upd; [exact Hr|]).
    + reflexivity.
    + (* a cached node record is of an epoch between the epoch record's and the data layer's *)
      destruct (t_node s) as [l|] eqn:En; cbn [t_ok]; [|exact Hq].
      apply as_of_right. rewrite Hq. apply (Hn l eq_refl).
    + cbn [t_ok]. rewrite Hq. auto.
    + intros l' [= <-]. rewrite <- (proj1 Hq). apply Hq.
    + cbn [t_ok]. apply as_of_right, Hq.
  - constructor; cbn [t_db t_azks t_node t_reqs].
    + lia.
    + intros l Hl. destruct (Hn l Hl). split; lia.
    + eapply Forall_impl; [|exact Hr]. intros q. apply t_ok_mono; cbn [t_azks t_db]; [reflexivity | lia].
  - cbn [andb]. destruct (existsb t_flight (t_reqs s)) eqn:Ef; [exact I0|].
    destruct (Nat.ltb_spec (t_azks s) (t_db s)) as [Hlt|_]; [|exact I0].
    constructor; cbn [t_db t_azks t_node t_reqs]; [apply Nat.le_refl | discriminate |].
    exact (Forall_unflagged _ _ _ _ Ef (t_ok_idle s _) Hr).
Qed.

Theorem answers_name_their_epoch e0 n sched :
  let s := trun2 true (tinit e0 n) sched in
  forall i a r, nth_error (t_reqs s) i = Some (TDone a r) -> r = Some a \/ r = None.
Proof.
  intros s i a r. apply (nth_error_Forall (t_ok s)). apply ti_reqs.
  apply (fold_left_inv TInv); [intros s0 a0; apply tstep_keeps | apply tinit_inv].
Qed.

(* without the lock: request 0 reads the root of epoch 2 and is suspended; epoch 3 is published, polled
   (flush, epoch record 3) and signalled; request 0 caches the root of epoch 2; request 1 answers
   (epoch 3, version 2) - on the code: (3, root hash of epoch 2) *)
Theorem two_records_without_lock_refuted :
  let s := trun2 false (tinit 2 2) [QR 0; QR 0; QR 0; QX; QF; QR 0; QR 1; QR 1] in
  t_azks s = 3 /\ nth_error (t_reqs s) 1 = Some (TDone 3 (Some 2)).
Proof. vm_compute. split; reflexivity. Qed.

Example two_records_with_lock_same_schedule :
  let s := trun2 true (tinit 2 2) [QR 0; QR 0; QR 0; QX; QF; QR 0; QF; QR 1; QR 1; QR 1; QR 1] in
  t_azks s = 3 /\ nth_error (t_reqs s) 1 = Some (TDone 3 (Some 3)).
Proof. vm_compute. split; reflexivity. Qed.
