(* nl_of_bits / bits_of are mutually inverse on bit strings of at most 256 bits and on well-formed
   canonical labels. *)
From Coq Require Import List Bool Arith NArith Lia.
From Akd Require Import Bits NodeLabel NodeLabelFacts.
Import ListNotations.
Local Open Scope nat_scope.

Definition pad8 (bs : list bool) : list bool := firstn 8 (bs ++ repeat false 8).

Lemma bits_to_byte_bound k : forall bs, (bits_to_byte bs k < 2 ^ N.of_nat k)%N.
Proof.
  induction k as [|k IH]; intros bs; cbn [bits_to_byte]; [reflexivity|].
  rewrite Nat2N.inj_succ, N.pow_succ_r'. specialize (IH (tl bs)).
  destruct bs as [|[] ?]; rewrite ?N.shiftl_1_l; lia.
Qed.

Lemma nth_pad8 bs i : i < 8 -> nth i (pad8 bs) false = nth i bs false.
Proof.
  intros Hi. unfold pad8. rewrite nth_firstn by exact Hi.
  destruct (Nat.lt_ge_cases i (length bs)) as [Hl|Hl].
  - apply app_nth1. exact Hl.
  - rewrite app_nth2 by exact Hl. rewrite nth_repeat. symmetry. apply nth_overflow. exact Hl.
Qed.

Lemma bits_to_byte_S bs k :
  bits_to_byte bs (S k) = (bits_to_byte (tl bs) k + N.b2n (hd false bs) * 2 ^ N.of_nat k)%N.
Proof. cbn [bits_to_byte]. destruct bs as [|[] ?]; cbn [hd N.b2n]; rewrite ?N.shiftl_1_l; lia. Qed.

(* the bits are laid out most significant first: bit r of the string is bit k-1-r of the number.
   The first bit sits above everything the tail contributes, which stays below 2^(k-1). *)
Lemma testbit_bits_to_byte : forall k bs r, r < k ->
  N.testbit (bits_to_byte bs k) (N.of_nat (k - 1 - r)) = nth r bs false.
Proof.
  induction k as [|k IH]; intros bs r Hr; [lia|]. rewrite bits_to_byte_S.
  pose proof (bits_to_byte_bound k (tl bs)) as Hb.
  assert (H2 : (2 ^ N.of_nat k <> 0)%N) by (apply N.pow_nonzero; discriminate).
  destruct r as [|r].
  - replace (S k - 1 - 0) with k by lia.
    change (N.of_nat k) with (0 + N.of_nat k)%N at 2. rewrite <- N.div_pow2_bits, N.div_add, N.div_small by assumption.
    destruct bs as [|[] ?]; reflexivity.
  - replace (S k - 1 - S r) with (k - 1 - r) by lia.
    rewrite <- (N.mod_pow2_bits_low _ (N.of_nat k)) by lia. rewrite N.mod_add, N.mod_small by assumption.
    rewrite IH by lia. destruct bs; [destruct r|]; reflexivity.
Qed.

Lemma byte_roundtrip bs : byte_bits (bits_to_byte bs 8) = pad8 bs.
Proof.
  apply (nth_ext _ _ false false).
  - unfold pad8. rewrite length_byte_bits, firstn_length, app_length, repeat_length. lia.
  - intros r Hr. rewrite length_byte_bits in Hr. rewrite nth_byte_bits, nth_pad8 by exact Hr.
    replace (7 - N.of_nat r)%N with (N.of_nat (8 - 1 - r)) by lia. apply testbit_bits_to_byte. exact Hr.
Qed.

Lemma length_bits_to_bytes : forall n bs, length (bits_to_bytes bs n) = n.
Proof. induction n as [|n IH]; intros bs; cbn [bits_to_bytes length]; [reflexivity | rewrite IH; reflexivity]. Qed.

Lemma nth_val_bits_to_bytes : forall n bs i, i < 8 * n ->
  nth i (val_bits (bits_to_bytes bs n)) false = nth i bs false.
Proof.
  induction n as [|n IH]; intros bs i Hi; [lia|].
  cbn [bits_to_bytes]. unfold val_bits in *. cbn [flat_map].
  destruct (Nat.lt_ge_cases i 8) as [H8|H8].
  - rewrite app_nth1 by (rewrite length_byte_bits; exact H8). rewrite byte_roundtrip. apply nth_pad8. exact H8.
  - rewrite app_nth2 by (rewrite length_byte_bits; exact H8). rewrite length_byte_bits.
    rewrite IH by lia. rewrite nth_skipn. f_equal. lia.
Qed.

Lemma bits_to_bytes_lt : forall n bs i, (byte_at (bits_to_bytes bs n) i < 256)%N.
Proof.
  induction n as [|n IH]; intros bs i; unfold byte_at; [destruct i; reflexivity|].
  cbn [bits_to_bytes]. destruct i as [|i]; cbn [nth]; [apply (bits_to_byte_bound 8) | apply IH].
Qed.

Theorem bits_of_nl_of_bits bs : length bs <= 256 -> bits_of (nl_of_bits bs) = bs.
Proof.
  intros Hl. unfold bits_of, nl_of_bits. cbn [lval llen]. rewrite Nat2N.id.
  apply (nth_ext _ _ false false).
  - rewrite firstn_length, length_val_bits, length_bits_to_bytes. lia.
  - intros i Hi. rewrite firstn_length, length_val_bits, length_bits_to_bytes in Hi.
    rewrite nth_firstn by lia. apply nth_val_bits_to_bytes. lia.
Qed.

Theorem nl_of_bits_WF bs : length bs <= 256 -> WF (nl_of_bits bs) /\ canonical (nl_of_bits bs) = true.
Proof.
  intros Hl. split.
  - apply WF_intro; cbn [nl_of_bits lval llen]; [apply length_bits_to_bytes | lia | apply bits_to_bytes_lt].
  - unfold canonical, nl_of_bits. cbn [lval llen]. rewrite Nat2N.id.
    rewrite (forallb_nth _ _ false). intros i Hi.
    rewrite skipn_length, length_val_bits, length_bits_to_bytes in Hi.
    rewrite nth_skipn. rewrite nth_val_bits_to_bytes by lia.
    rewrite nth_overflow by lia. reflexivity.
Qed.

Theorem nl_of_bits_bits_of a : WF a -> canonical a = true -> nl_of_bits (bits_of a) = a.
Proof.
  intros Wa Ca.
  pose proof (bits_le_256 a Wa) as Hl. destruct (nl_of_bits_WF (bits_of a) Hl) as [W C].
  apply bits_of_inj; try assumption. apply bits_of_nl_of_bits. exact Hl.
Qed.
