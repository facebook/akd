(* Every future marker of (n, E) lies strictly above n (and at most at E): the labels whose absence
   an honest history proof shows are labels of versions that do not exist yet (C03).  Every past
   marker of a start version s lies in [1, s]: a version the label has had. *)
From Coq Require Import List Bool Arith NArith Lia.
From Akd Require Import Marker MarkerFacts.
Import ListNotations.
Open Scope N_scope.

Lemma pow_loop_all : forall is s0 acc x, In x (pow_loop is s0 acc) -> In x acc \/ exists i, In i is /\ x = 2 ^ i.
Proof.
  induction is as [|i is IH]; intros s0 acc x Hx; cbn [pow_loop] in Hx; [left; exact Hx|].
  destruct (match s0 with Some y => y <=? N.shiftl 1 i | None => false end); [left; exact Hx|].
  destruct (IH s0 (acc ++ [N.shiftl 1 i]) x Hx) as [H|(j & Hj & ->)].
  - apply in_app_or in H. destruct H as [H|[<-|[]]]; [left; exact H|]. right. exists i. split; [left; reflexivity | apply shiftl1_pow].
  - right. exists j. split; [right; exact Hj | reflexivity].
Qed.

Theorem future_markers_above n E ni ei :
  n <> 0 -> n <= E -> ni = Nat.pred (count_le SKIP n) -> ei = Nat.pred (count_le SKIP E) ->
  forall x, In x (future_markers n E ni ei) -> n < x /\ x <= E.
Proof.
  intros Hn HnE -> -> x Hx. unfold future_markers in Hx.
  apply in_app_or in Hx. destruct Hx as [Hx|Hx]; [|exact (proj2 (proj1 (slice_SKIP n E Hn HnE x) Hx))].
  apply pow_loop_all in Hx. destruct Hx as [Hx|(i & Hi & ->)].
  - rewrite future_fold_eq in Hx by reflexivity. apply in_ups in Hx. destruct Hx as (i & _ & Hb & -> & HE).
    split; [exact (roundup_gt n i Hb) | exact HE].
  - apply in_Nrange in Hi. unfold marker_log2 in Hi. split; [apply N.log2_lt_pow2; lia | apply N.log2_le_pow2; lia].
Qed.

Theorem get_marker_versions_future s n E past future :
  n <> 0 -> n <= E -> get_marker_versions s n E = Some (past, future) ->
  forall x, In x future -> n < x /\ x <= E.
Proof.
  intros Hn HnE H. unfold get_marker_versions in H.
  destruct (find_max_index s) as [si|]; [|discriminate].
  destruct (find_max_index_pos n Hn) as [En _]. destruct (find_max_index_pos E ltac:(lia)) as [EE _]. rewrite En, EE in H.
  destruct (_ <? _)%nat; [discriminate|]. injection H as _ <-.
  apply future_markers_above; try assumption; reflexivity.
Qed.

Lemma SKIP_pos : forall y, In y SKIP -> 1 <= y.
Proof. assert (H : forallb (fun y => 1 <=? y) SKIP = true) by (vm_compute; reflexivity). intros y Hy. rewrite forallb_forall in H. apply N.leb_le. apply H. exact Hy. Qed.

Theorem past_markers_bound s si : s <> 0 -> find_max_index s = Some si ->
  forall m, In m (past_markers s si) -> 1 <= m /\ m <= s.
Proof.
  intros Hs Hf m Hm. destruct (find_max_index_pos s Hs) as [Ef Cn]. rewrite Ef in Hf. injection Hf as <-.
  apply in_past_markers in Hm. destruct Hm as [[<- _]|[[<- _]|Hm]].
  - destruct (skipmax_greatest SKIP s SKIP_sorted Cn) as (K1 & K2 & _). split; [exact (SKIP_pos _ K1) | exact K2].
  - apply pow2_log2_bounds. lia.
  - apply in_cuts in Hm. destruct Hm as (i & _ & _ & -> & Hnz). pose proof (cut_le s (i + 1)). lia.
Qed.

Theorem get_marker_versions_past s n E past future : s <> 0 ->
  get_marker_versions s n E = Some (past, future) -> forall m, In m past -> 1 <= m /\ m <= s.
Proof.
  intros Hs H. unfold get_marker_versions in H.
  destruct (find_max_index s) as [si|] eqn:Fs; [|discriminate].
  destruct (find_max_index n) as [ni|]; [|discriminate]. destruct (find_max_index E) as [ei|]; [|discriminate].
  destruct (ei <? ni)%nat; [discriminate|]. injection H as <- _. apply past_markers_bound; assumption.
Qed.
