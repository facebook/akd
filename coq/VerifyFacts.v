(* Facts about the auditor model (C09). *)
From Coq Require Import List Bool Arith NArith Lia.
From Akd Require Import Bits NodeLabel NodeLabelFacts ElemSet Hashing Tree Insert Directory Verify.
Import ListNotations.
Open Scope N_scope.

Section AuditorFacts.
  Variable cfg : config.

  (* an inserted node as the auditor places it: the leaf hash of its value at the end epoch *)
  Definition stamp (e : N) (x : elem) : elem := El (e_label x) (c_leaf_hash cfg (e_value x) e).

  Lemma stamped_labels e unch ins : map e_label (unch ++ map (stamp e) ins) = map e_label (unch ++ ins).
  Proof. rewrite !map_app, map_map. reflexivity. Qed.

  Lemma opt_bytes_eqb_iff o b : opt_bytes_eqb o b = true <-> o = Some b.
  Proof. destruct o as [x|]; cbn [opt_bytes_eqb]; [rewrite bytes_eqb_eq|]; split; congruence. Qed.

  Lemma verify_consecutive_iff pf ins unch h0 h1 e :
    verify_consecutive cfg pf (ins, unch) h0 h1 e = true <->
    (if pf then prefix_free_labels (unch ++ ins) else true) = true /\
    rebuild_root cfg unch 0 = Some h0 /\
    rebuild_root cfg (unch ++ map (stamp e) ins) (e - 1) = Some h1.
  Proof. unfold verify_consecutive, stamp. rewrite !andb_true_iff, !opt_bytes_eqb_iff. tauto. Qed.

  (* the two root hashes a single-epoch proof verifies against are determined by the proof:
     replacing either by a different value makes verification fail *)
  Theorem consecutive_hashes_determined pf proof h0 h1 h0' h1' e :
    verify_consecutive cfg pf proof h0 h1 e = true -> verify_consecutive cfg pf proof h0' h1' e = true ->
    h0 = h0' /\ h1 = h1'.
  Proof.
    destruct proof as [ins unch]. intros H H'. apply verify_consecutive_iff in H, H'.
    destruct H as (_ & A0 & A1), H' as (_ & A0' & A1'). split; congruence.
  Qed.

  (* fix F2 as a theorem: an accepted single-epoch proof has pairwise prefix-free node labels *)
  Theorem accepted_is_prefix_free proof h0 h1 e :
    verify_consecutive cfg true proof h0 h1 e = true ->
    prefix_free_labels (snd proof ++ fst proof) = true.
  Proof. destruct proof as [ins unch]. intros H. apply verify_consecutive_iff in H. apply H. Qed.

  Lemma pairwise_free_spec ls : pairwise_free ls = true ->
    forall i j, (i < j < length ls)%nat ->
      is_prefix_of (nth i ls nl_root) (nth j ls nl_root) = false /\
      is_prefix_of (nth j ls nl_root) (nth i ls nl_root) = false.
  Proof.
    induction ls as [|l r IH]; intros H i j Hij; [simpl in Hij; lia|].
    simpl in H. apply andb_true_iff in H. destruct H as [H1 H2].
    destruct i as [|i].
    - destruct j as [|j]; [lia|]. simpl. rewrite forallb_forall in H1.
      specialize (H1 (nth j r nl_root)). assert (Hin : In (nth j r nl_root) r) by (apply nth_In; simpl in Hij; lia).
      specialize (H1 Hin). apply andb_true_iff in H1. destruct H1 as [A B].
      apply negb_true_iff in A, B. auto.
    - destruct j as [|j]; [lia|]. simpl. apply IH; [exact H2|]. simpl in Hij. lia.
  Qed.

  (* ... which in bit-string terms means: no (canonicalised) label of the proof is equal to or a
     prefix of another one - shadowing, duplicated and overlapping node sets are rejected *)
  Theorem accepted_no_overlap proof h0 h1 e :
    verify_consecutive cfg true proof h0 h1 e = true ->
    let labels := map (fun x => canon (e_label x)) (snd proof ++ fst proof) in
    forall i j, (i < length labels)%nat -> (j < length labels)%nat -> i <> j ->
      is_prefix_of (nth i labels nl_root) (nth j labels nl_root) = false.
  Proof.
    intros H labels i j Hi Hj Hne. apply accepted_is_prefix_free in H. unfold prefix_free_labels in H.
    apply andb_true_iff in H. destruct H as [_ H]. fold labels in H.
    destruct (Nat.lt_ge_cases i j) as [Hlt|Hge].
    - apply (pairwise_free_spec labels H i j). lia.
    - apply (pairwise_free_spec labels H j i). lia.
  Qed.

  (* chains: inconsistent lists are rejected, and every root hash of an accepted chain is determined *)
  Theorem chain_lengths pf hashes proofs epochs :
    verify_chain cfg pf hashes proofs epochs = true ->
    length hashes = S (length proofs) /\ length proofs = length epochs.
  Proof.
    revert proofs epochs. induction hashes as [|h0 hs IH]; intros proofs epochs H; [destruct proofs, epochs; discriminate|].
    destruct hs as [|h1 hs'].
    - destruct proofs, epochs; try discriminate. auto.
    - destruct proofs as [|p ps]; [discriminate|]. destruct epochs as [|e es]; [discriminate|].
      cbn [verify_chain] in H. apply andb_true_iff in H. destruct H as [_ H]. apply IH in H. simpl in *. lia.
  Qed.

  Theorem chain_hashes_determined pf proofs epochs : forall hashes hashes',
    verify_chain cfg pf hashes proofs epochs = true -> verify_chain cfg pf hashes' proofs epochs = true ->
    proofs <> [] -> hashes = hashes'.
  Proof.
    revert epochs. induction proofs as [|p ps IH]; intros epochs hashes hashes' H H' Hne; [congruence|].
    destruct hashes as [|h0 [|h1 hs]]; try (destruct epochs; discriminate).
    destruct hashes' as [|h0' [|h1' hs']]; try (destruct epochs; discriminate).
    destruct epochs as [|e es]; [discriminate|]. cbn [verify_chain] in H, H'.
    apply andb_true_iff in H, H'. destruct H as [A B], H' as [A' B'].
    destruct (consecutive_hashes_determined _ _ _ _ _ _ _ A A') as [-> ->].
    destruct ps as [|p' ps'].
    - destruct hs, hs', es; try discriminate; reflexivity.
    - f_equal. apply (IH es (h1' :: hs) (h1' :: hs')); auto. discriminate.
  Qed.
End AuditorFacts.
