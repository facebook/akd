(* The read-fill / write-through protocol of CacheProto.v with MANY KEYS, at a coarser grain (a reader
   takes its ticket in one step, not in two loads): the counters of started and completed writes are
   shared by all keys (a write to any key invalidates the tickets of all reads in flight, which is
   what the storage manager does), the data layer and the cache are maps.  Theorem: under every
   schedule - evictions at any time included - whenever no write is in progress, for EVERY key the
   cache holds nothing or what the data layer holds.  (One-key model: CacheProto.v, which is the one
   replayed against the code.) *)
From Coq Require Import List Arith Lia Bool.
From Akd Require Import ListFacts.
Import ListNotations.

Inductive mrpc := MS (k : nat) | M1 (k : nat) (t : option nat) | M2 (k : nat) (t : option nat) (v : nat) | MDone (k v : nat).
Inductive mwpc := V0 (k v : nat) | V1 (k v : nat) | V2 (k v : nat) | V3 (k : nat) | VDone.

Record mstate := MSt { m_db : nat -> nat; m_cache : nat -> option nat; m_started : nat; m_completed : nat;
                       m_readers : list mrpc; m_writers : list mwpc }.

Definition fupd {A} (f : nat -> A) (k : nat) (x : A) : nat -> A := fun k' => if Nat.eqb k' k then x else f k'.

Fixpoint lupd {A} (l : list A) (i : nat) (x : A) : list A :=
  match l, i with
  | [], _ => []
  | _ :: r, O => x :: r
  | a :: r, S j => a :: lupd r j x
  end.

Inductive maction := MR (i : nat) | MW (j : nat) | ME (k : nat).

Definition mstep (s : mstate) (a : maction) : mstate :=
  match a with
  | MR i =>
    match nth_error (m_readers s) i with
    | Some (MS k) =>
      let r' := match m_cache s k with
                | Some v => MDone k v
                | None => M1 k (if Nat.eqb (m_started s) (m_completed s) then Some (m_started s) else None)
                end in
      MSt (m_db s) (m_cache s) (m_started s) (m_completed s) (lupd (m_readers s) i r') (m_writers s)
    | Some (M1 k t) => MSt (m_db s) (m_cache s) (m_started s) (m_completed s) (lupd (m_readers s) i (M2 k t (m_db s k))) (m_writers s)
    | Some (M2 k t v) =>
      let current := match t with Some n => Nat.eqb n (m_started s) | None => false end in
      MSt (m_db s) (if current then fupd (m_cache s) k (Some v) else m_cache s) (m_started s) (m_completed s)
          (lupd (m_readers s) i (MDone k v)) (m_writers s)
    | _ => s
    end
  | MW j =>
    match nth_error (m_writers s) j with
    | Some (V0 k v) =>
      if Nat.eqb (m_started s) (m_completed s)
      then MSt (m_db s) (m_cache s) (S (m_started s)) (m_completed s) (m_readers s) (lupd (m_writers s) j (V1 k v))
      else s
    | Some (V1 k v) => MSt (fupd (m_db s) k v) (m_cache s) (m_started s) (m_completed s) (m_readers s) (lupd (m_writers s) j (V2 k v))
    | Some (V2 k v) => MSt (m_db s) (fupd (m_cache s) k (Some v)) (m_started s) (m_completed s) (m_readers s) (lupd (m_writers s) j (V3 k))
    | Some (V3 k) => MSt (m_db s) (m_cache s) (m_started s) (S (m_completed s)) (m_readers s) (lupd (m_writers s) j VDone)
    | _ => s
    end
  | ME k => MSt (m_db s) (fupd (m_cache s) k None) (m_started s) (m_completed s) (m_readers s) (m_writers s)
  end.

Definition minit (d : nat -> nat) (rs : list nat) (ws : list (nat * nat)) : mstate :=
  MSt d (fun _ => None) 0 0 (map MS rs) (map (fun kv => V0 (fst kv) (snd kv)) ws).
Definition mrun (s : mstate) (sched : list maction) : mstate := fold_left mstep sched s.

Definition mbusy (w : mwpc) : nat := match w with V1 _ _ | V2 _ _ | V3 _ => 1 | _ => 0 end.
Fixpoint mbusy_count (ws : list mwpc) : nat := match ws with [] => 0 | w :: r => mbusy w + mbusy_count r end.

Definition coh (s : mstate) (x : nat) : Prop := m_cache s x = None \/ m_cache s x = Some (m_db s x).
Definition dirty (s : mstate) (x : nat) : Prop := exists j v, nth_error (m_writers s) j = Some (V2 x v).

Definition mr_ok (s : mstate) (r : mrpc) : Prop :=
  match r with
  | M1 _ (Some n) => n <= m_completed s
  | M2 k (Some n) v => n <= m_completed s /\ (n = m_started s -> v = m_db s k)
  | _ => True
  end.
Definition mw_ok (s : mstate) (w : mwpc) : Prop :=
  match w with
  | V2 k v => m_db s k = v
  | V3 k => coh s k
  | _ => True
  end.

Record MInv (s : mstate) : Prop := {
  mi_count : m_started s = m_completed s + mbusy_count (m_writers s);
  mi_one : mbusy_count (m_writers s) <= 1;
  mi_readers : Forall (mr_ok s) (m_readers s);
  mi_writers : Forall (mw_ok s) (m_writers s);
  mi_coh : forall x, ~ dirty s x -> coh s x }.

Lemma lupd_eq {A} (l : list A) : forall i x, lupd l i x = upd_nth l i x.
Proof. induction l as [|a l IH]; intros [|i] x; cbn [lupd upd_nth]; try reflexivity. now rewrite IH. Qed.

Lemma Forall_lupd {A} (P : A -> Prop) : forall l i x, Forall P l -> P x -> Forall P (lupd l i x).
Proof. intros l i x. rewrite lupd_eq. apply Forall_upd. Qed.

(* [mbusy_count] is [count mbusy] *)
Lemma mbusy_lupd : forall ws j w w', nth_error ws j = Some w -> mbusy_count (lupd ws j w') + mbusy w = mbusy_count ws + mbusy w'.
Proof. intros ws j w w'. rewrite lupd_eq. exact (count_upd mbusy ws j w w'). Qed.
Lemma mbusy_in : forall ws j w, nth_error ws j = Some w -> mbusy w <= mbusy_count ws.
Proof. exact (count_nth mbusy). Qed.

Lemma fupd_same {A} (f : nat -> A) k x : fupd f k x k = x.
Proof. exact (fun_upd_same f k x). Qed.
Lemma fupd_other {A} (f : nat -> A) k x k' : k' <> k -> fupd f k x k' = f k'.
Proof. exact (fun_upd_other f k x k'). Qed.

Lemma mw_ok_idle s w : mbusy w = 0 -> mw_ok s w.
Proof. destruct w; cbn [mbusy mw_ok]; auto; discriminate. Qed.

(* the step of the busy writer: every other writer is idle *)
Lemma Forall_mw_ok_step s ws j w w' : mbusy_count ws <= 1 -> nth_error ws j = Some w -> mbusy w = 1 ->
  mw_ok s w' -> Forall (mw_ok s) (lupd ws j w').
Proof.
  intros H1 E Hb Hw'. rewrite lupd_eq.
  apply (Forall_upd_counted mbusy _ ws j w w' H1 E); [lia | apply mw_ok_idle | exact Hw'].
Qed.

(* a key is dirty only through the busy writer *)
Lemma dirty_busy s x : dirty s x -> 1 <= mbusy_count (m_writers s).
Proof. intros (j & v & E). exact (mbusy_in _ _ _ E). Qed.
Lemma dirty_only s j w x : mbusy_count (m_writers s) <= 1 -> nth_error (m_writers s) j = Some w -> mbusy w = 1 ->
  dirty s x -> exists v, w = V2 x v.
Proof.
  intros H1 E Hb (j' & v & E'). destruct (Nat.eq_dec j' j) as [->|N]; [exists v; congruence|].
  assert (Hb' : 1 <= mbusy w) by lia.
  pose proof (count_one_other mbusy _ j j' w (V2 x v) E E' N Hb' H1). discriminate.
Qed.

(* tickets and values read stay good when writes complete, and when a write starts or reaches the data
   layer, because then no ticket is current *)
Lemma mr_ok_mono s s' r : m_completed s <= m_completed s' ->
  (forall n, n <= m_completed s -> n = m_started s' -> n = m_started s /\ m_db s' = m_db s) ->
  mr_ok s r -> mr_ok s' r.
Proof.
  intros Hc Hs. destruct r as [?|? [m|]|k [m|] v|? ?]; cbn [mr_ok]; auto.
  - intros A. lia.
  - intros [A C]. split; [lia|]. intros Em. destruct (Hs m A Em) as [E1 E2]. rewrite E2. auto.
Qed.

Lemma coh_fupd (db : nat -> nat) c k o x : o = None \/ o = Some (db k) -> (x <> k -> c x = None \/ c x = Some (db x)) ->
  fupd c k o x = None \/ fupd c k o x = Some (db x).
Proof.
  intros Ho Hx. destruct (Nat.eq_dec x k) as [->|N]; [rewrite fupd_same; exact Ho | rewrite fupd_other by exact N; auto].
Qed.

Lemma minit_inv d rs ws : MInv (minit d rs ws).
Proof.
  assert (B : mbusy_count (map (fun kv : nat * nat => V0 (fst kv) (snd kv)) ws) = 0) by (induction ws; cbn; auto).
  constructor; cbn [minit m_started m_completed m_writers m_readers m_cache m_db]; rewrite ?B; auto.
  - apply Forall_forall. intros r Hr. apply in_map_iff in Hr. destruct Hr as (k & <- & _). exact I.
  - apply (Forall_count0 mbusy); [exact B | apply mw_ok_idle].
  - intros x _. left. reflexivity.
Qed.

Lemma keep_coh s s' : m_db s' = m_db s -> m_cache s' = m_cache s -> m_writers s' = m_writers s ->
  (forall x, ~ dirty s x -> coh s x) -> forall x, ~ dirty s' x -> coh s' x.
Proof. intros D C W H x Hx. unfold coh, dirty in *. rewrite D, C. apply H. rewrite <- W. exact Hx. Qed.

Lemma mstep_keeps s a : MInv s -> MInv (mstep s a).
Proof.
  intros I0. pose proof I0 as [Hc H1 Hr Hw Hco]. destruct a as [i|j|k]; cbn [mstep].
  - (* a reader *)
    destruct (nth_error (m_readers s) i) as [r|] eqn:E; [|exact I0].
    pose proof (nth_error_Forall _ _ _ _ Hr E) as Ht.
    destruct r as [k|k t|k t v|k v]; [| | |exact I0].
    + constructor; cbn [m_db m_cache m_started m_completed m_readers m_writers]; try assumption.
      apply Forall_lupd; [exact Hr|]. destruct (m_cache s k); [exact I|].
      destruct (Nat.eqb_spec (m_started s) (m_completed s)) as [->|]; cbn [mr_ok]; auto.
    + constructor; cbn [m_db m_cache m_started m_completed m_readers m_writers]; try assumption.
      apply Forall_lupd; [exact Hr|]. destruct t; cbn [mr_ok] in *; auto.
    + destruct (match t with Some n => Nat.eqb n (m_started s) | None => false end) eqn:Ecur.
      * (* the fill: the ticket is current, so no write is in progress and the value is the data layer's *)
        destruct t as [n|]; [|discriminate]. apply Nat.eqb_eq in Ecur. destruct Ht as [Hn Hv].
        assert (B0 : mbusy_count (m_writers s) = 0) by lia. rewrite (Hv Ecur).
        constructor; cbn [m_db m_cache m_started m_completed m_readers m_writers]; try assumption.
        -- apply Forall_lupd; [exact Hr | exact I].
        -- apply (Forall_count0 mbusy); [exact B0 | apply mw_ok_idle].
        -- intros x _. unfold coh. cbn [m_cache m_db]. apply coh_fupd; [auto|]. intros _. apply Hco.
           intros Hd. apply dirty_busy in Hd. lia.
      * constructor; cbn [m_db m_cache m_started m_completed m_readers m_writers]; try assumption.
        apply Forall_lupd; [exact Hr | exact I].
  - (* a writer *)
    destruct (nth_error (m_writers s) j) as [w|] eqn:E; [|exact I0].
    pose proof (nth_error_Forall _ _ _ _ Hw E) as Hwj.
    pose proof (fun w' => mbusy_lupd _ j w w' E) as BU. pose proof (mbusy_in _ j w E) as B1.
    pose proof (fun x => dirty_only s j w x H1 E) as Hd.
    destruct w as [k v|k v|k v|k|]; cbn [mw_ok mbusy] in Hwj, BU, B1, Hd; [| | | |exact I0].
    + (* start *)
      destruct (Nat.eqb_spec (m_started s) (m_completed s)) as [Eq|]; [|exact I0].
      specialize (BU (V1 k v)). cbn [mbusy] in BU.
      constructor; cbn [m_db m_cache m_started m_completed m_readers m_writers]; try lia.
      * eapply Forall_impl; [|exact Hr]. intros r. apply mr_ok_mono; cbn [m_completed m_started m_db]; [auto | intros n Hn En; lia].
      * apply Forall_lupd; [exact Hw | exact I].
      * intros x _. apply Hco. intros Hx. apply dirty_busy in Hx. lia.
    + (* the data layer is written: key k becomes dirty *)
      specialize (BU (V2 k v)). cbn [mbusy] in BU.
      constructor; cbn [m_db m_cache m_started m_completed m_readers m_writers]; try lia.
      * eapply Forall_impl; [|exact Hr]. intros r. apply mr_ok_mono; cbn [m_completed m_started m_db]; [auto | intros n Hn En; lia].
      * apply (Forall_mw_ok_step _ _ j (V1 k v)); auto. cbn [mw_ok m_db]. apply fupd_same.
      * intros x Hx. assert (N : x <> k).
        { intros ->. apply Hx. exists j, v. cbn [m_writers]. rewrite lupd_eq. exact (nth_error_upd_same _ _ _ _ E). }
        unfold coh. cbn [m_cache m_db]. rewrite fupd_other by exact N. apply Hco.
        intros Hx'. destruct (Hd x eq_refl Hx') as [v' [=]].
    + (* write-through: key k is clean again, and nobody is at V2 any more *)
      specialize (BU (V3 k)). cbn [mbusy] in BU.
      assert (Hk : fupd (m_cache s) k (Some v) k = None \/ fupd (m_cache s) k (Some v) k = Some (m_db s k))
        by (right; rewrite fupd_same, Hwj; reflexivity).
      constructor; cbn [m_db m_cache m_started m_completed m_readers m_writers]; try lia.
      * exact Hr.
      * apply (Forall_mw_ok_step _ _ j (V2 k v)); auto.
      * intros x _. unfold coh. cbn [m_cache m_db]. apply coh_fupd; [right; now rewrite Hwj|]. intros N. apply Hco.
        intros Hx'. destruct (Hd x eq_refl Hx') as [v' [= -> _]]. now apply N.
    + (* completed *)
      specialize (BU VDone). cbn [mbusy] in BU.
      constructor; cbn [m_db m_cache m_started m_completed m_readers m_writers]; try lia.
      * eapply Forall_impl; [|exact Hr]. intros r. apply mr_ok_mono; cbn [m_completed m_started m_db]; auto.
      * apply (Forall_mw_ok_step _ _ j (V3 k)); auto. exact I.
      * intros x _. apply Hco. intros Hx'. destruct (Hd x eq_refl Hx') as [v' [=]].
  - (* eviction of key k *)
    constructor; cbn [m_db m_cache m_started m_completed m_readers m_writers]; auto.
    + eapply Forall_impl; [|exact Hw]. intros w. destruct w as [? ?|? ?|? ?|k'|]; cbn [mw_ok m_db]; auto.
      intros Hk'. apply coh_fupd; auto.
    + intros x Hx. apply coh_fupd; [auto|]. intros _. apply Hco. exact Hx.
Qed.

Theorem many_keys_coherent d rs ws sched :
  let s := mrun (minit d rs ws) sched in
  m_started s = m_completed s -> forall x, m_cache s x = None \/ m_cache s x = Some (m_db s x).
Proof.
  intros s Eq x. assert (I : MInv s) by (apply (fold_left_inv MInv); [exact mstep_keeps | apply minit_inv]).
  apply (mi_coh _ I). intros Hd. apply dirty_busy in Hd. pose proof (mi_count _ I). lia.
Qed.

(* two keys, a write to one of them while a read of the other is in flight: the read's fill is dropped
   (the ticket is shared), both keys end coherent *)
Example two_keys :
  let s := mrun (minit (fun _ => 1) [0] [(1, 5)]) [MR 0; MR 0; MW 0; MW 0; MW 0; MW 0; MR 0] in
  m_cache s 0 = None /\ m_cache s 1 = Some 5 /\ m_db s 1 = 5 /\ m_started s = m_completed s.
Proof. vm_compute. repeat split. Qed.
